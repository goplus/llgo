(* C02 - property theorems only. *)
From LLGoV Require Import C02.Model C02.Proofs.
Local Open Scope Z_scope.

(* Arithmetic and bitwise operators: for every integer type and every pair of
   operand bit patterns the emitted instructions return exactly the value the
   Go spec defines (mathematical result wrapped into the type). *)
Theorem arith_recipe_correct : forall op t x y,
  wf_ity t -> in_range (bits t) x -> in_range (bits t) y ->
  match op with GAdd | GSub | GMul | GAnd | GOr | GXor | GAndNot => True | _ => False end ->
  exec (recipe_binop true op t t) [x; y] = expect t (go_binop op t t (val t x) (val t y)).
Proof. intros op t x y Hw. apply arith_correct, wf_w_pos, Hw. Qed.
Print Assumptions arith_recipe_correct.

(* Division and remainder: truncation toward zero, minInt / -1 = minInt with
   remainder 0, and a zero divisor panics before any undefined behaviour. *)
Theorem div_recipe_correct : forall rem t x y,
  wf_ity t -> in_range (bits t) x -> in_range (bits t) y ->
  exec (recipe_div rem t) [x; y]
  = expect t (go_binop (if rem then GRem else GQuo) t t (val t x) (val t y)).
Proof. intros rem t x y Hw. apply div_correct, wf_w_pos, Hw. Qed.
Print Assumptions div_recipe_correct.

Example div_minint : exec (recipe_div false I32) [2 ^ 31; 2 ^ 32 - 1] = Ret (2 ^ 31)
                     /\ exec (recipe_div true I32) [2 ^ 31; 2 ^ 32 - 1] = Ret 0
                     /\ exec (recipe_div false I32) [5; 0] = Panic DivZero.
Proof. repeat split; reflexivity. Qed.

(* Shifts: a count at or beyond the operand width gives 0 (or the sign fill)
   WHATEVER the width and signedness of the count's own type; a negative
   signed count panics.  64 type pairs x both directions. *)
Theorem shift_recipe_correct : forall left tx ty x y,
  wf_ity tx -> wf_ity ty -> in_range (bits tx) x -> in_range (bits ty) y ->
  exec (recipe_shift true left tx ty) [x; y]
  = expect tx (go_binop (if left then GShl else GShr) tx ty (val tx x) (val ty y)).
Proof.
  intros left tx ty x y Hx Hy.
  apply shift_correct; [now apply wf_w_pos | now apply wf_w_pos | now apply width_in_range].
Qed.
Print Assumptions shift_recipe_correct.

Example shift_oversize : exec (recipe_shift true true U8 U64) [1; 256] = Ret 0
                         /\ exec (recipe_shift true false I8 U16) [128; 256] = Ret 255
                         /\ exec (recipe_shift true true U8 I16) [1; 2 ^ 16 - 1] = Panic NegShift.
Proof. repeat split; reflexivity. Qed.

(* the lowering that converts the count to the operand width before comparing
   it with the width (what the tree emitted before the fix) is refuted *)
Theorem shift_count_truncated_refuted :
  exec (recipe_shift false true U8 U64) [1; 256]
  <> expect U8 (go_binop GShl U8 U64 (val U8 1) (val U64 256)).
Proof. vm_compute. congruence. Qed.
Print Assumptions shift_count_truncated_refuted.

(* Comparisons *)
Theorem cmp_recipe_correct : forall op t x y,
  wf_ity t -> in_range (bits t) x -> in_range (bits t) y ->
  match op with GEq | GNe | GLt | GLe | GGt | GGe => True | _ => False end ->
  exec (recipe_binop true op t t) [x; y] = expect t (go_binop op t t (val t x) (val t y)).
Proof. intros op t x y Hw. apply cmp_correct, wf_w_pos, Hw. Qed.
Print Assumptions cmp_recipe_correct.

(* Unary minus and bitwise complement *)
Theorem unop_recipe_correct : forall op t x,
  wf_ity t -> in_range (bits t) x ->
  exec (recipe_unop op t) [x] = Ret (enc t (go_unop op t (val t x))).
Proof. intros op t x Hw. apply unop_correct, wf_w_pos, Hw. Qed.
Print Assumptions unop_recipe_correct.

(* Conversions between integer types sign- or zero-extend according to the
   SOURCE type and truncate to the destination width. *)
Theorem conv_recipe_correct : forall tx td x,
  wf_ity tx -> wf_ity td -> in_range (bits tx) x ->
  exec (recipe_conv tx td) [x] = Ret (enc td (go_conv tx td (val tx x))).
Proof. intros tx td x Hx Hd. apply conv_correct; now apply wf_w_pos. Qed.
Print Assumptions conv_recipe_correct.

(* Float comparisons: the predicate chosen for each operator gives Go's result
   in all four ordering cases (less, equal, greater, unordered = a NaN operand):
   every comparison with a NaN is false except != *)
Theorem fcmp_recipe_correct : forall op o,
  match op with GEq | GNe | GLt | GLe | GGt | GGe => True | _ => False end ->
  eval_fpred (fpred_of op) o = go_fcmp op o.
Proof. intros op o Hop. destruct op; try contradiction; destruct o; reflexivity. Qed.
Print Assumptions fcmp_recipe_correct.

(* the tie: IR that the obligation [func_eqb ir recipe = true] accepts executes
   exactly like the recipe, so the theorems above transfer to the emitted IR *)
Theorem generated_ir_executes_as_recipe : forall f g args,
  func_eqb f g = true -> exec f args = exec g args.
Proof.
  unfold func_eqb, exec. intros f g args H.
  apply andb_true_iff in H as [H Hw]. apply andb_true_iff in H as [H Hr].
  apply andb_true_iff in H as [Hn Hb].
  apply Nat.eqb_eq in Hn. apply Z.eqb_eq in Hw. rewrite <- Hn, <- Hw.
  destruct (Nat.eqb _ _); [|reflexivity]. now apply instrs_eqb_run.
Qed.
Print Assumptions generated_ir_executes_as_recipe.
