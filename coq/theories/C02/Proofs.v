(* C02 - the recipes compute what the Go spec says, for any positive widths. run_cons / run_nil
   and the tactic [steps] execute a recipe on an explicit environment; enc_norm and wrap_val_le
   reduce "Go value wrapped" to congruences of Lib/BV.v; then one lemma per operator class
   (arith, cmp, unop, conv via step_cast_instr, div, shift). instrs_eqb_run, at the head of the
   file, is the soundness of func_eqb. *)
From LLGoV Require Import C02.Model.
From Coq Require Import ZifyBool.
Local Open Scope Z_scope.

Lemma opw_eqb_get w a b e : opw_eqb w a b = true -> get e a w = get e b w.
Proof.
  destruct a, b; cbn; try discriminate.
  - intros H. apply Nat.eqb_eq in H. now subst.
  - intros H. apply Z.eqb_eq in H. now rewrite H.
Qed.

Lemma binop_eqb_eq a b : binop_eqb a b = true -> a = b.
Proof. destruct a, b; cbn; congruence. Qed.
Lemma pred_eqb_eq a b : pred_eqb a b = true -> a = b.
Proof. destruct a, b; cbn; congruence. Qed.
Lemma castop_eqb_eq a b : castop_eqb a b = true -> a = b.
Proof. destruct a, b; cbn; congruence. Qed.
Lemma akind_eqb_eq a b : akind_eqb a b = true -> a = b.
Proof. destruct a, b; cbn; congruence. Qed.

Lemma instr_eqb_step i j e : instr_eqb i j = true -> step e i = step e j.
Proof.
  destruct i, j; cbn [instr_eqb]; try discriminate; rewrite !andb_true_iff; intros H; cbn [step].
  - destruct H as [[[Ho Hw] Ha] Hb]. apply binop_eqb_eq in Ho. apply Z.eqb_eq in Hw. subst.
    now rewrite (opw_eqb_get _ _ _ e Ha), (opw_eqb_get _ _ _ e Hb).
  - destruct H as [[[[Ho Hf] Hw] Ha] Hb]. apply binop_eqb_eq in Ho. apply N.eqb_eq in Hf.
    apply Z.eqb_eq in Hw. subst. now rewrite (opw_eqb_get _ _ _ e Ha), (opw_eqb_get _ _ _ e Hb).
  - destruct H as [[[Hp Hw] Ha] Hb]. apply pred_eqb_eq in Hp. apply Z.eqb_eq in Hw. subst.
    now rewrite (opw_eqb_get _ _ _ e Ha), (opw_eqb_get _ _ _ e Hb).
  - destruct H as [[[Hw Hc] Ha] Hb]. apply Z.eqb_eq in Hw. subst.
    now rewrite (opw_eqb_get _ _ _ e Hc), (opw_eqb_get _ _ _ e Ha), (opw_eqb_get _ _ _ e Hb).
  - destruct H as [[[Ho Hf] Ht] Ha]. apply castop_eqb_eq in Ho. apply Z.eqb_eq in Hf, Ht. subst.
    now rewrite (opw_eqb_get _ _ _ e Ha).
  - destruct H as [Hk Hc]. apply akind_eqb_eq in Hk. subst. now rewrite (opw_eqb_get _ _ _ e Hc).
Qed.

Lemma instrs_eqb_run a : forall b e r r' rw,
  instrs_eqb a b = true -> opw_eqb rw r r' = true -> run e a r rw = run e b r' rw.
Proof.
  induction a as [|i a IH]; intros [|j b] e r r' rw H Hr; cbn in H; try discriminate.
  - cbn. now rewrite (opw_eqb_get _ r r' e).
  - apply andb_true_iff in H as [H1 H2]. cbn [run].
    rewrite (instr_eqb_step i j e H1). destruct (step e j); [|reflexivity]. now apply IH.
Qed.

Lemma run_cons e i is r rw :
  run e (i :: is) r rw = match step e i with SNext e' => run e' is r rw | SStop o => o end.
Proof. reflexivity. Qed.

Lemma run_nil e r rw : run e [] r rw
  = match get e r rw with Some (Some v) => Ret v | Some None => PoisonRet | None => Malformed end.
Proof. reflexivity. Qed.

(* [steps] executes instructions on an environment given as an explicit list, until one needs a
   case distinction (an assertion on an undecided condition) or a fact about eval_bin; run is
   never unfolded, so the goal stays the outcome of the instructions not yet executed
   (run_cons and run_nil are its two rewriting steps) *)
Ltac step_cbn := cbn [step get X Y nth_error app eval_cast eval_pred b2z Z.eqb].
Ltac steps := step_cbn; repeat (rewrite run_cons; step_cbn); rewrite ?run_nil; cbn [get nth_error].

Lemma b2z_eqb0 c : (b2z c =? 0) = negb c.
Proof. now destruct c. Qed.
Lemma land_b2z a b : Z.land (b2z a) (b2z b) = b2z (a && b).
Proof. now destruct a, b. Qed.
Lemma lor_b2z a b : Z.lor (b2z a) (b2z b) = b2z (a || b).
Proof. now destruct a, b. Qed.

Lemma wrap_val_le w t x : 0 <= w <= bits t -> wrap w (val t x) = wrap w x.
Proof. intros H. unfold val. destruct (sg t); [now apply wrap_sgn_le | reflexivity]. Qed.

Lemma wrap_val t x : 0 <= bits t -> in_range (bits t) x -> wrap (bits t) (val t x) = x.
Proof. intros Hw Hx. rewrite wrap_val_le by lia. now apply wrap_small. Qed.

Lemma enc_norm t v : 0 <= bits t -> enc t (norm t v) = wrap (bits t) v.
Proof. intros Hw. unfold enc, norm. rewrite wrap_val_le by lia. apply wrap_wrap. Qed.

Lemma val_bounds t x : 0 < bits t -> in_range (bits t) x ->
  if sg t then - 2 ^ (bits t - 1) <= val t x < 2 ^ (bits t - 1) else 0 <= val t x < 2 ^ bits t.
Proof. intros Hw Hx. unfold val. destruct (sg t); [now apply sgn_bounds | exact Hx]. Qed.

Lemma val_range t x : wf_ity t -> in_range (bits t) x ->
  if sg t then - 2 ^ (bits t - 1) <= val t x < 2 ^ (bits t - 1) else 0 <= val t x < 2 ^ bits t.
Proof. intros Hw. apply val_bounds, wf_w_pos, Hw. Qed.

Lemma land_wrap_l w x b : 0 <= w -> in_range w x -> wrap w (Z.land x b) = Z.land x b.
Proof.
  intros Hw Hx. apply Z.bits_inj'. intros n Hn.
  destruct (Z_lt_ge_dec n w) as [L|G].
  - now rewrite wrap_testbit by lia.
  - rewrite wrap_testbit_high by lia. rewrite Z.land_spec.
    rewrite <- (wrap_small w x Hx), wrap_testbit_high by lia. reflexivity.
Qed.

Lemma arith_correct op t x y :
  0 < bits t -> in_range (bits t) x -> in_range (bits t) y ->
  match op with GAdd | GSub | GMul | GAnd | GOr | GXor | GAndNot => True | _ => False end ->
  exec (recipe_binop true op t t) [x; y] = expect t (go_binop op t t (val t x) (val t y)).
Proof.
  intros Hw Hx Hy Hop.
  assert (Hx' := wrap_small _ _ Hx). assert (Hy' := wrap_small _ _ Hy).
  destruct op; try contradiction; unfold exec;
    cbn [recipe_binop mathop nparams body ret retw length Nat.eqb map expect go_binop];
    steps; cbn [eval_bin]; steps; rewrite ?enc_norm by lia; f_equal.
  - apply wrap_add_congr; symmetry; apply wrap_val_le; lia.
  - apply wrap_sub_congr; symmetry; apply wrap_val_le; lia.
  - apply wrap_mul_congr; symmetry; apply wrap_val_le; lia.
  - rewrite wrap_land, !wrap_val by (assumption || lia). reflexivity.
  - rewrite wrap_lor, !wrap_val by (assumption || lia). reflexivity.
  - rewrite wrap_lxor, !wrap_val by (assumption || lia). reflexivity.
  - (* &^ : and x (xor y -1) *)
    rewrite wrap_ldiff, !wrap_val by (assumption || lia).
    rewrite Z.ldiff_land.
    rewrite <- Hy' at 1. rewrite <- wrap_lxor by lia. rewrite Z.lxor_m1_r.
    rewrite <- (land_wrap_l (bits t) x (Z.lnot y)) by (assumption || lia).
    rewrite wrap_land, Hx' by lia. reflexivity.
Qed.

Lemma cmp_correct op t x y :
  0 < bits t -> in_range (bits t) x -> in_range (bits t) y ->
  match op with GEq | GNe | GLt | GLe | GGt | GGe => True | _ => False end ->
  exec (recipe_binop true op t t) [x; y] = expect t (go_binop op t t (val t x) (val t y)).
Proof.
  intros Hw Hx Hy Hop.
  destruct op; try contradiction;
    unfold exec; cbn [recipe_binop nparams body ret retw length Nat.eqb map expect go_binop];
    unfold val; destruct (sg t); cbn [predop]; steps; rewrite ?eqb_sgn_sgn by assumption; reflexivity.
Qed.

Lemma unop_correct op t x :
  0 < bits t -> in_range (bits t) x ->
  exec (recipe_unop op t) [x] = Ret (enc t (go_unop op t (val t x))).
Proof.
  intros Hw Hx.
  assert (Hx' := wrap_small _ _ Hx).
  destruct op; unfold exec; cbn [recipe_unop nparams body ret retw length Nat.eqb map go_unop];
    steps; cbn [eval_bin]; steps; rewrite enc_norm by lia; f_equal.
  - rewrite wrap_0.
    replace (- val t x) with (0 - val t x) by lia.
    apply wrap_sub_congr; [reflexivity|]. symmetry. apply wrap_val_le. lia.
  - rewrite <- Hx' at 1. rewrite <- wrap_lxor by lia. rewrite Z.lxor_m1_r.
    unfold Z.lnot. replace (Z.pred (- x)) with ((-1) - x) by lia.
    replace (Z.pred (- val t x)) with ((-1) - val t x) by lia.
    apply wrap_sub_congr; [reflexivity|]. symmetry. apply wrap_val_le. lia.
Qed.

(* whichever of trunc, sext, zext castInt picks, the result is the source VALUE wrapped to the
   destination width *)
Lemma step_cast_instr tx td e a x :
  0 < bits tx -> 0 <= bits td -> get e a (bits tx) = Some (Some x) -> in_range (bits tx) x ->
  step e (cast_instr tx td a) = SNext (e ++ [Some (wrap (bits td) (val tx x))]).
Proof.
  intros Hx Hd Ha Hr. unfold cast_instr.
  destruct (bits td <? bits tx) eqn:E; [|destruct (sg tx) eqn:S]; cbn [step]; rewrite Ha; cbn [eval_cast].
  - now rewrite wrap_val_le by lia.
  - unfold val. now rewrite S.
  - unfold val. rewrite S, wrap_small; [reflexivity|].
    apply (in_range_mono (bits tx)); [lia | exact Hr].
Qed.

Lemma conv_correct tx td x :
  0 < bits tx -> 0 < bits td -> in_range (bits tx) x ->
  exec (recipe_conv tx td) [x] = Ret (enc td (go_conv tx td (val tx x))).
Proof.
  intros Hx Hd Hr. unfold go_conv. rewrite enc_norm by lia.
  unfold recipe_conv. destruct (bits tx =? bits td) eqn:E; unfold exec; cbn [nparams body ret retw length Nat.eqb map].
  - apply Z.eqb_eq in E. rewrite <- E, wrap_val by (lia || assumption). reflexivity.
  - rewrite run_cons, (step_cast_instr tx td _ X x) by (lia || assumption || reflexivity).
    now steps.
Qed.

Lemma div_in_range w x y : in_range w x -> 0 < y -> in_range w (x / y).
Proof.
  unfold in_range. intros Hx Hy. split; [apply Z.div_pos; lia|].
  apply Z.le_lt_trans with x; [|lia]. apply Z.div_le_upper_bound; nia.
Qed.

Lemma urem_ok w x y : in_range w x -> in_range w y -> y <> 0 -> x mod y = wrap w (Z.rem x y).
Proof.
  unfold in_range. intros Hx Hy Hn. rewrite Z.rem_mod_nonneg by lia. symmetry. apply wrap_small.
  unfold in_range. pose proof (Z.mod_pos_bound x y). lia.
Qed.
Lemma udiv_ok w x y : in_range w x -> in_range w y -> y <> 0 -> x / y = wrap w (x ÷ y).
Proof.
  intros Hx Hy Hn. unfold in_range in Hx, Hy. rewrite Z.quot_div_nonneg by lia. symmetry.
  apply wrap_small, div_in_range; [exact Hx | lia].
Qed.

Lemma go_div (rem : bool) t vx vy : go_binop (if rem then GRem else GQuo) t t vx vy
  = if vy =? 0 then GPanic DivZero else GVal (norm t ((if rem then Z.rem else Z.quot) vx vy)).
Proof. now destruct rem. Qed.

Lemma eval_udiv (rem : bool) w x y : y <> 0 ->
  eval_bin (if rem then URem else UDiv) w x y = RVal (Some (if rem then x mod y else x / y)).
Proof. intros H. apply Z.eqb_neq in H. destruct rem; cbn; now rewrite H. Qed.

Lemma eval_sdiv (rem : bool) w x y : y <> 0 -> (sgn w x =? - 2 ^ (w - 1)) && (sgn w y =? -1) = false ->
  eval_bin (if rem then SRem else SDiv) w x y
  = RVal (Some (wrap w ((if rem then Z.rem else Z.quot) (sgn w x) (sgn w y)))).
Proof. intros H O. apply Z.eqb_neq in H. destruct rem; cbn; now rewrite H, O. Qed.

Lemma div_correct rem t x y :
  0 < bits t -> in_range (bits t) x -> in_range (bits t) y ->
  exec (recipe_div rem t) [x; y] = expect t (go_binop (if rem then GRem else GQuo) t t (val t x) (val t y)).
Proof.
  intros Hw Hx Hy. rewrite go_div.
  unfold recipe_div, val. destruct (sg t); unfold exec; cbn [nparams body ret retw length Nat.eqb map].
  - assert (Hm : wrap (bits t) (2 ^ (bits t - 1)) = wrap (bits t) (- 2 ^ (bits t - 1))).
    { apply (wrap_congr _ _ _ 1); [lia|]. rewrite (pow2_double (bits t)); lia. }
    pose proof (pow2_pos (bits t - 1)) as Hh.
    steps. rewrite (eqb_wrap_const _ y 0) by (lia || assumption).
    destruct (sgn (bits t) y =? 0) eqn:Ey; [reflexivity|].
    steps. cbn [eval_bin]. rewrite land_b2z, Hm, !eqb_wrap_const by (lia || assumption).
    cbn [expect]. rewrite enc_norm by lia.
    destruct (_ && _) eqn:O; steps.
    + (* minInt / -1: the instruction divides 0 by 1 and its result is discarded *)
      rewrite eval_sdiv.
      2:{ rewrite wrap_small; [lia|]. unfold in_range. rewrite (pow2_double (bits t)); lia. }
      2:{ rewrite (sgn_wrap _ 0) by lia. apply andb_false_iff. left. lia. }
      apply andb_true_iff in O as [Ox Oy]. apply Z.eqb_eq in Ox, Oy. rewrite Ox, Oy.
      destruct rem; steps; f_equal.
      * now rewrite (Z.rem_opp_opp _ 1), Z.rem_1_r by lia.
      * rewrite (Z.quot_opp_opp _ 1), Z.quot_1_r, Hm, <- Ox, wrap_sgn_le, wrap_small
          by (lia || assumption).
        reflexivity.
    + rewrite eval_sdiv; [destruct rem; now steps | | exact O].
      intros ->. rewrite <- (wrap_0 (bits t)), sgn_wrap in Ey by lia. discriminate.
  - steps. rewrite wrap_0.
    destruct (Z.eqb_spec y 0) as [|Ey]; [reflexivity|].
    steps. rewrite eval_udiv by exact Ey. steps. cbn [expect]. rewrite enc_norm by lia.
    f_equal. destruct rem; [now apply urem_ok | now apply udiv_ok].
Qed.

Lemma shl_big w v c : 0 <= w <= c -> wrap w (v * 2 ^ c) = 0.
Proof.
  intros H. unfold wrap. replace c with ((c - w) + w) by lia.
  rewrite Z.pow_add_r by lia. rewrite Z.mul_assoc. apply Z.mod_mul.
  apply Z.pow_nonzero; lia.
Qed.

Lemma lshr_small w x c : in_range w x -> 0 <= c -> wrap w (x / 2 ^ c) = x / 2 ^ c.
Proof. intros Hx Hc. apply wrap_small, div_in_range; [exact Hx | now apply pow2_pos]. Qed.

Lemma lshr_big w x c : in_range w x -> 0 <= w <= c -> x / 2 ^ c = 0.
Proof.
  unfold in_range. intros Hx Hc. apply Z.div_small.
  pose proof (Z.pow_le_mono_r 2 w c). lia.
Qed.

Lemma div_pow_sign k v c : 0 <= k <= c -> - 2 ^ k <= v < 2 ^ k ->
  v / 2 ^ c = if v <? 0 then -1 else 0.
Proof.
  intros Hk Hv. pose proof (Z.pow_le_mono_r 2 k c ltac:(lia) ltac:(lia)) as Hp.
  destruct (v <? 0) eqn:E.
  - symmetry. apply (Z.div_unique v (2 ^ c) (-1) (v + 2 ^ c)); lia.
  - apply Z.div_small. lia.
Qed.

Lemma ashr_big w v c : 0 < w -> - 2 ^ (w - 1) <= v < 2 ^ (w - 1) -> w - 1 <= c ->
  v / 2 ^ c = v / 2 ^ (w - 1).
Proof.
  intros Hw Hv Hc. rewrite (div_pow_sign (w - 1) v c), (div_pow_sign (w - 1) v (w - 1)) by lia.
  reflexivity.
Qed.

Lemma sgn_small w y : 0 <= y < 2 ^ (w - 1) -> sgn w y = y.
Proof. intros H. unfold sgn. destruct (y <? 2 ^ (w - 1)) eqn:E; lia. Qed.

Lemma go_shift (left : bool) tx ty vx vy : go_binop (if left then GShl else GShr) tx ty vx vy
  = if vy <? 0 then GPanic NegShift else GVal (norm tx (if left then vx * 2 ^ vy else vx / 2 ^ vy)).
Proof. now destruct left. Qed.

Lemma val_nonneg t y : 0 < bits t -> in_range (bits t) y -> 0 <= val t y -> val t y = y.
Proof.
  unfold val, sgn, in_range. intros Hw Hy. destruct (sg t); [|reflexivity].
  destruct (y <? _); lia.
Qed.

(* an oversize count makes poison, not undefined behaviour *)
Lemma eval_shl w a b :
  eval_bin Shl w a b = RVal (if b <? w then Some (wrap w (a * 2 ^ b)) else None).
Proof. cbn. now destruct (b <? w). Qed.
Lemma eval_lshr w a b : eval_bin LShr w a b = RVal (if b <? w then Some (a / 2 ^ b) else None).
Proof. cbn. now destruct (b <? w). Qed.

Lemma eval_ashr w a b : b < w -> eval_bin AShr w a b = RVal (Some (wrap w (sgn w a / 2 ^ b))).
Proof. intros H. apply Z.ltb_lt in H. cbn. now rewrite H. Qed.

Lemma width_in_range w wy : wf_w w -> wf_w wy -> in_range wy w.
Proof.
  intros Hw Hy. assert (2 ^ 8 <= 2 ^ wy) by (apply pow2_mono; widths Hy; lia).
  unfold in_range. widths Hw; lia.
Qed.

(* a signed count is tested first; a count that passes is its own value *)
Lemma run_neg_check ty x y rest r rw : 0 < bits ty -> in_range (bits ty) y ->
  run [Some x; Some y]
      ((if sg ty then [ICmp Pslt (bits ty) Y (Cst 0); IAssert NegShift (Val 2)] else []) ++ rest) r rw
  = if val ty y <? 0 then Panic NegShift
    else run ([Some x; Some y] ++ if sg ty then [Some 0] else []) rest r rw.
Proof.
  intros Hw Hy. unfold val. destruct (sg ty); cbn [app].
  - steps. rewrite (sgn_wrap _ 0) by lia. now destruct (sgn (bits ty) y <? 0).
  - unfold in_range in Hy. now destruct (Z.ltb_spec y 0); [lia|].
Qed.

Lemma shift_correct left tx ty x y :
  0 < bits tx -> 0 < bits ty -> in_range (bits ty) (bits tx) ->
  in_range (bits tx) x -> in_range (bits ty) y ->
  exec (recipe_shift true left tx ty) [x; y]
  = expect tx (go_binop (if left then GShl else GShr) tx ty (val tx x) (val ty y)).
Proof.
  intros Hwx Hwy Hov Hx Hy. rewrite go_shift.
  unfold recipe_shift, exec. cbv zeta. cbn [nparams body ret retw length Nat.eqb map].
  rewrite run_neg_check by assumption.
  destruct (Z.ltb_spec (val ty y) 0) as [|Hv]; [reflexivity|].
  assert (Hvy : val ty y = y) by now apply val_nonneg.
  rewrite Hvy in *. cbn [expect]. rewrite enc_norm by lia.
  assert (Hlin : bits tx < 2 ^ bits tx) by (apply Z.pow_gt_lin_r; lia).
  (* the arithmetic: each instruction by an oversize count and by a small one *)
  assert (Hshl_big : bits tx <= y -> wrap (bits tx) 0 = wrap (bits tx) (val tx x * 2 ^ y)).
  { intros. rewrite wrap_0. symmetry. apply shl_big. lia. }
  assert (Hshl : wrap (bits tx) (x * 2 ^ y) = wrap (bits tx) (val tx x * 2 ^ y)).
  { apply wrap_mul_congr; [symmetry; apply wrap_val_le; lia | reflexivity]. }
  assert (Hashr_big : bits tx <= y -> wrap (bits tx) (sgn (bits tx) x / 2 ^ (bits tx - 1))
                                      = wrap (bits tx) (sgn (bits tx) x / 2 ^ y)).
  { intros. f_equal. symmetry. apply ashr_big; [lia | now apply sgn_bounds | lia]. }
  assert (Hlshr_big : bits tx <= y -> wrap (bits tx) 0 = wrap (bits tx) (x / 2 ^ y)).
  { intros. now rewrite (lshr_big (bits tx) x y) by (assumption || lia). }
  assert (Hlshr : x / 2 ^ y = wrap (bits tx) (x / 2 ^ y)) by (symmetry; now apply lshr_small).
  assert (Hcase : bits tx <= y /\ (bits tx <=? y) = true
                 \/ (bits tx <=? y) = false /\ (y <? bits tx) = true /\ wrap (bits tx) y = y).
  { destruct (Z.leb_spec (bits tx) y); [now left|right]. repeat split.
    - now apply Z.ltb_lt.
    - apply wrap_small. unfold in_range. lia. }
  (* The recipe has 3 x 2 x 2 shapes (which shift; sign test of the count or not; conversion of
     the count or not) that differ in the positions of their operands only. Each is executed,
     for an oversize and for a small count; no goal is closed before the last line, where what
     is left of every one is one of the five facts above. *)
  destruct left; [|unfold val; destruct (sg tx)];
    destruct Hcase as [[Hbig Hle]|(Hle & Hlt & Hyw)].
  (* the compare of the count with the width, in the count's type *)
  all: destruct (sg ty); cbn [app]; steps; rewrite (wrap_small _ (bits tx)), Hle by exact Hov.
  (* the conversion of the count, if the widths differ *)
  all: destruct (Z.eqb_spec (bits tx) (bits ty)) as [E|E]; cbn [app];
    [|rewrite run_cons, (step_cast_instr ty tx _ Y y), Hvy by (assumption || lia || reflexivity)].
  (* the shift and the select; eval_shl, eval_lshr, eval_ashr say when the shift is defined *)
  all: steps; rewrite ?eval_shl, ?eval_lshr, ?Hyw, ?Hlt;
    rewrite ?(wrap_small _ (bits tx - 1)), ?eval_ashr by (unfold in_range; lia); steps; f_equal; auto.
Qed.

(* converting the count to the operand width before the comparison is just as wrong for the
   right shift of a negative operand: a count that is a multiple of 2^width reads as 0 *)
Lemma shift_unfixed_refuted_shr :
  exec (recipe_shift false false I8 U16) [128; 256]
  <> expect I8 (go_binop GShr I8 U16 (val I8 128) (val U16 256)).
Proof. vm_compute. congruence. Qed.
