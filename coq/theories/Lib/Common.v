(* Shared helpers: boolean equalities and [mismatches], used by the correspondence
   evaluation (case files written by the harness); the byte-string type; list and
   string lemmas and [run_invariant], which several properties use. *)
From Coq Require Export List NArith ZArith Bool Lia.
Export ListNotations.

Fixpoint list_eqb {A} (e : A -> A -> bool) (xs ys : list A) : bool :=
  match xs, ys with
  | [], [] => true
  | x :: xs', y :: ys' => e x y && list_eqb e xs' ys'
  | _, _ => false
  end.

Definition option_eqb {A} (e : A -> A -> bool) (x y : option A) : bool :=
  match x, y with
  | None, None => true
  | Some a, Some b => e a b
  | _, _ => false
  end.

Definition prod_eqb {A B} (ea : A -> A -> bool) (eb : B -> B -> bool)
  (x y : A * B) : bool := ea (fst x) (fst y) && eb (snd x) (snd y).

Definition str := list N.            (* bytes or code points, by context *)
Definition str_eqb : str -> str -> bool := list_eqb N.eqb.
Definition strs_eqb : list str -> list str -> bool := list_eqb str_eqb.

(* indexes (from 0) of the cases on which [f] and the observed output differ *)
Fixpoint mismatches_from {I O} (e : O -> O -> bool) (f : I -> O)
  (n : N) (cs : list (I * O)) : list N :=
  match cs with
  | [] => []
  | (i, o) :: cs' =>
      if e (f i) o then mismatches_from e f (N.succ n) cs'
      else n :: mismatches_from e f (N.succ n) cs'
  end.
Definition mismatches {I O} e f cs := @mismatches_from I O e f 0%N cs.

Lemma list_eqb_refl {A} (e : A -> A -> bool) :
  (forall a, e a a = true) -> forall xs, list_eqb e xs xs = true.
Proof. intros H; induction xs as [|x xs IH]; cbn; [reflexivity|]. now rewrite H, IH. Qed.

Lemma list_eqb_eq {A} (e : A -> A -> bool) :
  (forall a b, e a b = true -> a = b) ->
  forall xs ys, list_eqb e xs ys = true -> xs = ys.
Proof.
  intros H; induction xs as [|x xs IH]; destruct ys as [|y ys]; cbn; try discriminate; auto.
  intros E. apply andb_true_iff in E as [E1 E2]. f_equal; auto.
Qed.

Lemma str_eqb_eq a b : str_eqb a b = true -> a = b.
Proof. apply list_eqb_eq. intros x y E. now apply N.eqb_eq. Qed.

Lemma str_eqb_refl a : str_eqb a a = true.
Proof. apply list_eqb_refl, N.eqb_refl. Qed.

Lemma str_eqb_iff a b : str_eqb a b = true <-> a = b.
Proof. split; [apply str_eqb_eq | intros ->; apply str_eqb_refl]. Qed.

(* membership tests written as [existsb (eqb x) l] *)
Lemma existsb_eqb_In {A} (eqb : A -> A -> bool) :
  (forall a b, eqb a b = true <-> a = b) ->
  forall x l, existsb (eqb x) l = true <-> In x l.
Proof.
  intros E x l. rewrite existsb_exists. split.
  - intros (y & Hy & Exy). apply E in Exy. now subst.
  - intros H. exists x. split; [exact H | now apply E].
Qed.

Lemma filter_all {A} (f : A -> bool) l : (forall x, In x l -> f x = true) -> filter f l = l.
Proof.
  induction l as [|x l IH]; intros H; cbn; [reflexivity|].
  rewrite (H x (or_introl eq_refl)), IH; auto using in_cons.
Qed.

Lemma Forall_nth_error {A} (P : A -> Prop) l i x : Forall P l -> nth_error l i = Some x -> P x.
Proof. intros H E. rewrite Forall_forall in H. apply H. eapply nth_error_In; eauto. Qed.

Lemma nth_firstn_lt {A} (l : list A) n i d : (i < n)%nat -> nth i (firstn n l) d = nth i l d.
Proof.
  revert n i; induction l as [|x l IH]; intros [|n] [|i]; cbn; intros; try lia; auto. apply IH; lia.
Qed.

Lemma firstn_app_exact {A} (a b : list A) : firstn (length a) (a ++ b) = a.
Proof. induction a as [|x r IH]; cbn; [reflexivity|]. now rewrite IH. Qed.

Lemma skipn_app_exact {A} (a b : list A) : skipn (length a) (a ++ b) = b.
Proof. induction a; cbn; auto. Qed.

(* An invariant of the steps of a machine holds after every schedule.  [run] is the machine's own
   fixpoint over schedules (a step that is not enabled is skipped); it satisfies the two equations
   by computation. *)
Lemma run_invariant {S X} (step : S -> X -> option S) (run : list X -> S -> S) (inv : S -> Prop) :
  (forall s, run [] s = s) ->
  (forall x sc s, run (x :: sc) s = match step s x with Some s' => run sc s' | None => run sc s end) ->
  (forall s x s', inv s -> step s x = Some s' -> inv s') ->
  forall sc s, inv s -> inv (run sc s).
Proof.
  intros R0 R1 H. induction sc as [|x sc IH]; intros s Hs.
  - now rewrite R0.
  - rewrite R1. destruct (step s x) eqn:E; eauto.
Qed.
