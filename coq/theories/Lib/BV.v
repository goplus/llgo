(* Fixed-width integers as Z bit patterns with explicit wrap-around. *)
From Coq Require Export ZArith Bool Lia List.
From Coq Require Import ZifyBool.
Export ListNotations.
Local Open Scope Z_scope.

Definition modulus (w : Z) : Z := 2 ^ w.
Definition wrap (w z : Z) : Z := z mod 2 ^ w.
(* signed reading of a bit pattern 0 <= z < 2^w *)
Definition sgn (w z : Z) : Z := if z <? 2 ^ (w - 1) then z else z - 2 ^ w.
Definition in_range (w z : Z) : Prop := 0 <= z < 2 ^ w.
Definition in_rangeb (w z : Z) : bool := (0 <=? z) && (z <? 2 ^ w).

Definition wf_w (w : Z) : Prop := w = 8 \/ w = 16 \/ w = 32 \/ w = 64.

Ltac widths H := destruct H as [->|[->|[->| ->]]].

Lemma wf_w_pos w : wf_w w -> 0 < w.
Proof. intros H; widths H; lia. Qed.

Lemma pow2_pos w : 0 <= w -> 0 < 2 ^ w.
Proof. intros. apply Z.pow_pos_nonneg; lia. Qed.

Lemma pow2_double w : 0 < w -> 2 ^ w = 2 * 2 ^ (w - 1).
Proof. intros. rewrite <- Z.pow_succ_r by lia. f_equal. lia. Qed.

Lemma pow2_mono a b : 0 <= a <= b -> 2 ^ a <= 2 ^ b.
Proof. intros. apply Z.pow_le_mono_r; lia. Qed.

Lemma in_range_mono a b z : 0 <= a <= b -> in_range a z -> in_range b z.
Proof. unfold in_range. intros H Hz. pose proof (pow2_mono a b H). lia. Qed.

Lemma wrap_range w z : 0 <= w -> in_range w (wrap w z).
Proof. intros H. unfold in_range, wrap. apply Z.mod_pos_bound. now apply pow2_pos. Qed.

Lemma wrap_small w z : in_range w z -> wrap w z = z.
Proof. unfold in_range, wrap. intros H. now apply Z.mod_small. Qed.

Lemma wrap_0 w : wrap w 0 = 0.
Proof. apply Zmod_0_l. Qed.

Lemma wrap_congr w a b k : 0 <= w -> a = b + k * 2 ^ w -> wrap w a = wrap w b.
Proof. intros Hw ->. unfold wrap. apply Z.mod_add. apply Z.pow_nonzero; lia. Qed.

Lemma wrap_add_congr w a a' b b' :
  wrap w a = wrap w a' -> wrap w b = wrap w b' -> wrap w (a + b) = wrap w (a' + b').
Proof. unfold wrap. intros H1 H2. rewrite Zplus_mod, H1, H2, <- Zplus_mod. reflexivity. Qed.

Lemma wrap_sub_congr w a a' b b' :
  wrap w a = wrap w a' -> wrap w b = wrap w b' -> wrap w (a - b) = wrap w (a' - b').
Proof. unfold wrap. intros H1 H2. rewrite Zminus_mod, H1, H2, <- Zminus_mod. reflexivity. Qed.

Lemma wrap_mul_congr w a a' b b' :
  wrap w a = wrap w a' -> wrap w b = wrap w b' -> wrap w (a * b) = wrap w (a' * b').
Proof. unfold wrap. intros H1 H2. rewrite Zmult_mod, H1, H2, <- Zmult_mod. reflexivity. Qed.

Lemma wrap_wrap w z : wrap w (wrap w z) = wrap w z.
Proof. unfold wrap. apply Zmod_mod. Qed.

Lemma wrap_wrap_le a b z : 0 <= a <= b -> wrap a (wrap b z) = wrap a z.
Proof.
  intros H. apply (wrap_congr a _ z (- (z / 2 ^ b) * 2 ^ (b - a))); [lia|].
  unfold wrap. rewrite Z.mod_eq by (apply Z.pow_nonzero; lia).
  replace (2 ^ b) with (2 ^ (b - a) * 2 ^ a) by (rewrite <- Z.pow_add_r by lia; f_equal; lia).
  ring.
Qed.

(* sgn w z is the representative of z modulo 2^w in [-2^(w-1), 2^(w-1)) *)
Lemma sgn_bounds w z : 0 < w -> in_range w z -> - 2 ^ (w - 1) <= sgn w z < 2 ^ (w - 1).
Proof.
  unfold sgn, in_range. intros Hw Hz. rewrite (pow2_double w Hw) in *.
  destruct (z <? 2 ^ (w - 1)) eqn:E; lia.
Qed.

Lemma wrap_sgn_le a b z : 0 <= a <= b -> wrap a (sgn b z) = wrap a z.
Proof.
  intros H. unfold sgn. destruct (z <? _); [reflexivity|].
  apply (wrap_congr a _ z (- 2 ^ (b - a))); [lia|].
  replace b with (b - a + a) at 1 by lia. rewrite Z.pow_add_r by lia. lia.
Qed.

Lemma sgn_wrap w v : 0 < w -> - 2 ^ (w - 1) <= v < 2 ^ (w - 1) -> sgn w (wrap w v) = v.
Proof.
  intros Hw Hv. unfold sgn, wrap. rewrite (pow2_double w Hw) in *.
  destruct (Z_lt_le_dec v 0).
  - rewrite <- (Z.mod_add v 1), Z.mod_small by lia. destruct (_ <? _) eqn:E; lia.
  - rewrite Z.mod_small by lia. destruct (_ <? _) eqn:E; lia.
Qed.

Lemma sgn_inj w a b : 0 < w -> in_range w a -> in_range w b -> sgn w a = sgn w b -> a = b.
Proof.
  intros Hw Ha Hb E. rewrite <- (wrap_small w a Ha), <- (wrap_small w b Hb).
  rewrite <- (wrap_sgn_le w w a), <- (wrap_sgn_le w w b), E by lia. reflexivity.
Qed.

Lemma eqb_sgn_sgn w a b : 0 < w -> in_range w a -> in_range w b -> (sgn w a =? sgn w b) = (a =? b).
Proof.
  intros Hw Ha Hb. destruct (Z.eqb_spec a b) as [->|N]; [apply Z.eqb_refl|].
  apply Z.eqb_neq. intros E. now apply N, (sgn_inj w).
Qed.

Lemma eqb_wrap_const w a k : 0 < w -> in_range w a -> - 2 ^ (w - 1) <= k < 2 ^ (w - 1) ->
  (a =? wrap w k) = (sgn w a =? k).
Proof.
  intros Hw Ha Hk. rewrite <- (sgn_wrap w k Hw Hk) at 2. symmetry.
  apply eqb_sgn_sgn; [exact Hw | exact Ha | apply wrap_range; lia].
Qed.

Lemma wrap_sgn w z : 0 < w -> in_range w z -> wrap w (sgn w z) = z.
Proof. intros Hw Hz. rewrite wrap_sgn_le by lia. now apply wrap_small. Qed.

Lemma wrap_testbit w z n : 0 <= n < w -> Z.testbit (wrap w z) n = Z.testbit z n.
Proof. intros H. unfold wrap. apply Z.mod_pow2_bits_low. lia. Qed.

Lemma wrap_testbit_high w z n : 0 <= w <= n -> Z.testbit (wrap w z) n = false.
Proof. intros H. unfold wrap. apply Z.mod_pow2_bits_high. lia. Qed.

Lemma wrap_bitwise (f : Z -> Z -> Z) (fb : bool -> bool -> bool) w a b :
  0 <= w -> fb false false = false ->
  (forall x y n, 0 <= n -> Z.testbit (f x y) n = fb (Z.testbit x n) (Z.testbit y n)) ->
  wrap w (f a b) = f (wrap w a) (wrap w b).
Proof.
  intros Hw Hff Hf. apply Z.bits_inj'. intros n Hn.
  destruct (Z_lt_ge_dec n w) as [L|G].
  - rewrite wrap_testbit, Hf, Hf, !wrap_testbit by lia. reflexivity.
  - rewrite wrap_testbit_high, Hf, !wrap_testbit_high by lia. now rewrite Hff.
Qed.

Lemma wrap_land w a b : 0 <= w -> wrap w (Z.land a b) = Z.land (wrap w a) (wrap w b).
Proof. intros. apply (wrap_bitwise Z.land andb); auto. intros; apply Z.land_spec. Qed.
Lemma wrap_lor w a b : 0 <= w -> wrap w (Z.lor a b) = Z.lor (wrap w a) (wrap w b).
Proof. intros. apply (wrap_bitwise Z.lor orb); auto. intros; apply Z.lor_spec. Qed.
Lemma wrap_lxor w a b : 0 <= w -> wrap w (Z.lxor a b) = Z.lxor (wrap w a) (wrap w b).
Proof. intros. apply (wrap_bitwise Z.lxor xorb); auto. intros; apply Z.lxor_spec. Qed.
Lemma wrap_ldiff w a b : 0 <= w -> wrap w (Z.ldiff a b) = Z.ldiff (wrap w a) (wrap w b).
Proof.
  intros. apply (wrap_bitwise Z.ldiff (fun x y => x && negb y)); auto.
  intros; apply Z.ldiff_spec.
Qed.

Lemma land_range w a b : 0 <= w -> in_range w a -> in_range w b -> in_range w (Z.land a b).
Proof.
  intros Hw Ha Hb. rewrite <- (wrap_small w a Ha), <- (wrap_small w b Hb), <- wrap_land by lia.
  now apply wrap_range.
Qed.
Lemma lor_range w a b : 0 <= w -> in_range w a -> in_range w b -> in_range w (Z.lor a b).
Proof.
  intros Hw Ha Hb. rewrite <- (wrap_small w a Ha), <- (wrap_small w b Hb), <- wrap_lor by lia.
  now apply wrap_range.
Qed.
Lemma lxor_range w a b : 0 <= w -> in_range w a -> in_range w b -> in_range w (Z.lxor a b).
Proof.
  intros Hw Ha Hb. rewrite <- (wrap_small w a Ha), <- (wrap_small w b Hb), <- wrap_lxor by lia.
  now apply wrap_range.
Qed.

(* shifting a pattern left by n bits *)
Lemma wrap_scale w n x : 0 <= w -> 0 <= n -> wrap (w + n) (x * 2 ^ n) = wrap w x * 2 ^ n.
Proof. intros Hw Hn. unfold wrap. rewrite Z.pow_add_r by lia. apply Zmult_mod_distr_r. Qed.

Lemma sgn_scale w n z : 0 < w -> 0 <= n -> sgn (w + n) (z * 2 ^ n) = sgn w z * 2 ^ n.
Proof.
  intros Hw Hn. unfold sgn. replace (w + n - 1) with (w - 1 + n) by lia. rewrite !Z.pow_add_r by lia.
  pose proof (pow2_pos n).
  destruct (Z.ltb_spec z (2 ^ (w - 1))), (Z.ltb_spec (z * 2 ^ n) (2 ^ (w - 1) * 2 ^ n)); nia.
Qed.

(* zero-extending an a-bit pattern to b bits *)
Lemma wrap_wrap_ge a b x : 0 <= a <= b -> wrap b (wrap a x) = wrap a x.
Proof. intros Hw. apply wrap_small, (in_range_mono a); [lia|apply wrap_range; lia]. Qed.
