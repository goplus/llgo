(* C20 - lemmas about the lexical path model and the extraction model.
   Names: split/join and the loop of Clean, then resolve (what Join yields on an
   absolute destination) and the two checks as equivalences on element lists.
   File system: MkdirAll from its last element, then frame (nothing outside the
   destination changes) and place_all_wellformed (well-formed archives). *)
From LLGoV Require Import C20.Model.
Local Open Scope N_scope.

Definition noslash (s : str) : Prop := ~ In SLASH s.

(* a name that the OS resolves by stepping down exactly one level *)
Definition plain (s : str) : Prop :=
  s <> [] /\ is_dot s = false /\ is_dotdot s = false /\ noslash s.

Lemma noslash_cons a t : noslash (a :: t) -> (a =? SLASH) = false /\ noslash t.
Proof.
  intros H. split; [|intros Hin; apply H; now right].
  apply N.eqb_neq. intros ->. apply H. now left.
Qed.

Lemma plain_is_nil s : plain s -> is_nil s = false.
Proof. intros [H _]. destruct s; [congruence | reflexivity]. Qed.

Lemma split_nonempty s : split s <> [].
Proof. destruct s as [|c r]; cbn; [discriminate|]. destruct (c =? SLASH); [discriminate|]. destruct (split r); discriminate. Qed.

Lemma split_noslash s : Forall noslash (split s).
Proof.
  induction s as [|c r IH]; cbn.
  - constructor; [intros [] | constructor].
  - destruct (c =? SLASH) eqn:E; [constructor; [intros [] | exact IH]|].
    assert (Hc : forall h, noslash h -> noslash (c :: h)).
    { intros h Hh [Ec|Hin]; [|exact (Hh Hin)]. rewrite Ec, N.eqb_refl in E. discriminate. }
    destruct (split r) as [|h t].
    + constructor; [apply Hc; intros [] | constructor].
    + inversion IH as [|? ? Hh Ht]; subst. constructor; [now apply Hc | exact Ht].
Qed.

Lemma split_app_slash : forall a b, split (a ++ SLASH :: b) = split a ++ split b.
Proof.
  induction a as [|c a IH]; intros b.
  - cbn [app split]. now rewrite N.eqb_refl.
  - cbn [app split]. destruct (c =? SLASH); rewrite IH; [reflexivity|].
    destruct (split a) as [|h t] eqn:E; [now apply split_nonempty in E | reflexivity].
Qed.

Lemma split_noslash_id : forall t, noslash t -> split t = [t].
Proof.
  induction t as [|a t IH]; intros Ht; cbn; [reflexivity|].
  apply noslash_cons in Ht as [-> Ht]. now rewrite IH.
Qed.

Lemma join_cons c cs : join (c :: cs) = c ++ (if is_nil cs then [] else SLASH :: join cs).
Proof. destruct cs; cbn; [now rewrite app_nil_r | reflexivity]. Qed.

Lemma join_app D r : D <> [] -> r <> [] -> join (D ++ r) = join D ++ SLASH :: join r.
Proof.
  induction D as [|d D IH]; intros HD Hr; [congruence|].
  cbn [app]. rewrite !join_cons. destruct D as [|d' D].
  - cbn [app is_nil]. destruct r; [congruence|]. cbn [is_nil]. now rewrite app_nil_r.
  - cbn [app is_nil] in *. rewrite IH by (discriminate || assumption). now rewrite <- app_assoc.
Qed.

Lemma split_join T : Forall plain T -> T <> [] -> split (join T) = T.
Proof.
  induction T as [|t T IH]; intros HT Hne; [congruence|].
  inversion HT as [|? ? (_ & _ & _ & Ht) HT']; subst. destruct T as [|t' T].
  - now apply split_noslash_id.
  - change (join (t :: t' :: T)) with (t ++ SLASH :: join (t' :: T)).
    rewrite split_app_slash, (split_noslash_id t Ht), IH by (assumption || discriminate). reflexivity.
Qed.

Lemma has_prefix_app : forall p s, has_prefix s p = true <-> exists t, s = p ++ t.
Proof.
  induction p as [|x p IH]; intros s.
  - split; [now exists s | destruct s; reflexivity].
  - destruct s as [|y s]; cbn [has_prefix app]; [split; [discriminate | intros [t E]; discriminate]|].
    split.
    + intros H. apply andb_true_iff in H as [H1 H2]. apply N.eqb_eq in H1. apply IH in H2 as [t ->].
      subst. now exists t.
    + intros [t E]. injection E as -> ->. rewrite N.eqb_refl. apply IH. now exists t.
Qed.

(* q lies strictly below D.  As in pref below, the shorter path comes first;
   the model's has_prefix takes the longer string first. *)
Definition sunder (D q : path) : Prop := exists r, r <> [] /\ q = D ++ r.

(* the string test of extractTarGz and securePath, read on element lists:
   split is injective on what join produces *)
Lemma prefix_join D T : Forall plain D -> Forall plain T ->
  has_prefix (join T) (join D ++ [SLASH]) = true <-> D <> [] /\ sunder D T.
Proof.
  intros HD HT. split.
  - intros H. apply has_prefix_app in H as [t E]. rewrite <- app_assoc in E. cbn [app] in E.
    assert (HTne : T <> []) by (intros ->; destruct (join D); discriminate).
    apply (f_equal split) in E. rewrite split_app_slash, (split_join T HT HTne) in E.
    destruct D as [|d D].
    + subst T. apply Forall_inv in HT as [Hne _]. congruence.
    + rewrite (split_join (d :: D) HD) in E by discriminate.
      split; [discriminate|]. exists (split t). split; [apply split_nonempty | exact E].
  - intros [HDne [r [Hr ->]]]. apply has_prefix_app. exists (join r).
    now rewrite (join_app D r HDne Hr), <- app_assoc.
Qed.

Lemma norm_plain : forall segs st,
  Forall noslash segs -> Forall plain st -> Forall plain (norm_segs true segs st).
Proof.
  induction segs as [|s r IH]; intros st Hs Hst; cbn.
  - apply Forall_rev. exact Hst.
  - inversion Hs as [|? ? Hs1 Hs2]; subst.
    destruct (is_nil s) eqn:En; cbn; [now apply IH|].
    destruct (is_dot s) eqn:Ed; cbn; [now apply IH|].
    destruct (is_dotdot s) eqn:Edd.
    + destruct st as [|top st']; [now apply IH|].
      inversion Hst as [|? ? Ht Hst']; subst.
      destruct Ht as (_ & _ & -> & _). now apply IH.
    + apply IH; [assumption|]. constructor; [|assumption].
      repeat split; try assumption. intros ->. discriminate.
Qed.

Lemma norm_plain_id : forall T st, Forall plain T -> norm_segs true T st = rev st ++ T.
Proof.
  induction T as [|t T IH]; intros st HT; cbn; [now rewrite app_nil_r|].
  inversion HT as [|? ? Ht HT']; subst.
  rewrite (plain_is_nil _ Ht). destruct Ht as [H1 [H2 [H3 H4]]]. rewrite H2, H3. cbn.
  rewrite IH by assumption. cbn. now rewrite <- app_assoc.
Qed.

Lemma norm_drop rt : forall segs st,
  Forall (fun s => is_nil s || is_dot s = true) segs -> norm_segs rt segs st = rev st.
Proof.
  induction segs as [|s r IH]; intros st H; cbn [norm_segs]; [reflexivity|].
  inversion H as [|? ? H1 H2]; subst. rewrite H1. now apply IH.
Qed.

Lemma norm_segs_app rt : forall xs ys st,
  norm_segs rt (xs ++ ys) st = norm_segs rt ys (rev (norm_segs rt xs st)).
Proof.
  induction xs as [|x xs IH]; intros ys st.
  - cbn. now rewrite rev_involutive.
  - cbn [app norm_segs]. destruct (is_nil x || is_dot x); [apply IH|].
    destruct (is_dotdot x); [|apply IH].
    destruct st as [|top st']; [destruct rt; apply IH|]. destruct (is_dotdot top); apply IH.
Qed.

Lemma comps_plain s : rooted s = true -> Forall plain (comps s).
Proof.
  intros Hr. unfold comps. rewrite Hr. apply norm_plain; [apply split_noslash | constructor].
Qed.

Lemma clean_rooted s : rooted s = true -> clean s = SLASH :: join (comps s).
Proof. intros Hr. unfold clean. destruct s; [discriminate|]. cbn [is_nil]. now rewrite Hr. Qed.

Lemma comps_of_clean T : Forall plain T -> comps (SLASH :: join T) = T.
Proof.
  intros HT. unfold comps. cbn [rooted]. rewrite N.eqb_refl. cbn [split]. rewrite N.eqb_refl.
  destruct T as [|t T']; [reflexivity|].
  rewrite (split_join (t :: T') HT ltac:(discriminate)).
  change (norm_segs true ([] :: t :: T') []) with (norm_segs true (t :: T') []).
  now rewrite norm_plain_id.
Qed.

Lemma rooted_app a b : rooted a = true -> rooted (a ++ b) = true.
Proof. destruct a; [discriminate | exact id]. Qed.

Lemma clean_comps dest : rooted dest = true ->
  rooted (clean dest) = true /\ comps (clean dest) = comps dest.
Proof.
  intros Hr. rewrite (clean_rooted _ Hr). split; [reflexivity|].
  apply comps_of_clean, comps_plain, Hr.
Qed.

(* filepath.Join(dest, name) for an absolute dest: the elements of name are
   normalised on top of the elements of dest *)
Definition resolve (dest name : str) : path := norm_segs true (split name) (rev (comps dest)).

Lemma resolve_plain dest name : rooted dest = true -> Forall plain (resolve dest name).
Proof. intros Hr. apply norm_plain; [apply split_noslash | apply Forall_rev, comps_plain, Hr]. Qed.

Lemma join2_rooted dest name : rooted dest = true -> join2 dest name = SLASH :: join (resolve dest name).
Proof.
  intros Hr. unfold join2. replace (is_nil dest) with false by now destruct dest. cbn [negb].
  rewrite clean_rooted by now apply rooted_app. unfold resolve, comps.
  now rewrite (rooted_app _ (SLASH :: name) Hr), Hr, split_app_slash, norm_segs_app.
Qed.

Lemma comps_join2 dest name : rooted dest = true -> comps (join2 dest name) = resolve dest name.
Proof. intros Hr. rewrite (join2_rooted _ _ Hr). apply comps_of_clean, resolve_plain, Hr. Qed.

Lemma resolve_clean dest name : rooted dest = true -> resolve (clean dest) name = resolve dest name.
Proof. intros Hr. unfold resolve. now rewrite (proj2 (clean_comps _ Hr)). Qed.

Lemma comps_secure_target dest name : rooted dest = true ->
  comps (secure_target dest name) = resolve dest name.
Proof.
  intros Hr. unfold secure_target. rewrite comps_join2 by apply (clean_comps _ Hr).
  now apply resolve_clean.
Qed.

(* the old test of extractTarGz accepts exactly the names that resolve strictly
   below the destination (and nothing when the destination is the root) *)
Lemma guard_iff dest name : rooted dest = true ->
  guard dest name = true <-> comps dest <> [] /\ sunder (comps dest) (resolve dest name).
Proof.
  intros Hr. unfold guard. rewrite (join2_rooted _ _ Hr), (clean_rooted _ Hr).
  cbn [app has_prefix]. rewrite N.eqb_refl. cbn [andb].
  apply prefix_join; [apply comps_plain | apply resolve_plain]; exact Hr.
Qed.

Lemma guard_fixed_eq dest name : rooted dest = true ->
  guard_fixed dest name = str_eqb (secure_target dest name) (clean dest) || guard (clean dest) name.
Proof.
  intros Hr. destruct (clean_comps _ Hr) as [Hrc Hcc]. unfold guard_fixed, guard, secure_target.
  now rewrite (clean_rooted _ Hrc), Hcc, <- (clean_rooted _ Hr).
Qed.

Lemma guard_fixed_iff dest name : rooted dest = true ->
  guard_fixed dest name = true <->
  resolve dest name = comps dest \/ (comps dest <> [] /\ sunder (comps dest) (resolve dest name)).
Proof.
  intros Hr. destruct (clean_comps _ Hr) as [Hrc Hcc].
  pose proof (guard_iff (clean dest) name Hrc) as G. rewrite Hcc, (resolve_clean _ _ Hr) in G.
  rewrite (guard_fixed_eq _ _ Hr). split.
  - intros H. apply orb_true_iff in H as [E|H]; [left | right; now apply G].
    apply str_eqb_eq in E. apply (f_equal comps) in E. now rewrite (comps_secure_target _ _ Hr), Hcc in E.
  - intros [E|H]; apply orb_true_iff; [left | right; now apply G]. unfold secure_target.
    rewrite (join2_rooted _ _ Hrc), (resolve_clean _ _ Hr), E, <- (clean_rooted _ Hr).
    apply list_eqb_refl, N.eqb_refl.
Qed.

Lemma checked_target (fixed : bool) dest name : rooted dest = true ->
  (if fixed then guard_fixed dest name else guard dest name) = true ->
  exists rest, Forall plain rest /\ (fixed = false -> rest <> []) /\
    comps (if fixed then secure_target dest name else join2 dest name) = comps dest ++ rest.
Proof.
  intros Hr Hg. pose proof (resolve_plain dest name Hr) as HT. destruct fixed.
  - apply (guard_fixed_iff _ _ Hr) in Hg. rewrite (comps_secure_target _ _ Hr).
    destruct Hg as [E | [_ [rest [_ E]]]]; [exists [] | exists rest]; rewrite ?app_nil_r.
    + split; [constructor|]. split; [discriminate | exact E].
    + rewrite E in HT. apply Forall_app in HT. split; [apply HT|]. split; [discriminate | exact E].
  - apply (guard_iff _ _ Hr) in Hg as [_ [rest [Hne E]]]. rewrite (comps_join2 _ _ Hr).
    exists rest. rewrite E in HT. apply Forall_app in HT.
    split; [apply HT|]. split; [intros _; exact Hne | exact E].
Qed.

Lemma resolve_plain_names dest r sfx : Forall plain r -> r <> [] -> (sfx = [] \/ sfx = [SLASH]) ->
  resolve dest (join r ++ sfx) = comps dest ++ r.
Proof.
  intros Hp Hne Hs.
  assert (exists z, Forall (fun s => is_nil s || is_dot s = true) z /\ split (join r ++ sfx) = r ++ z)
    as (z & Hz & E).
  { destruct Hs as [-> | ->].
    - exists []. now rewrite !app_nil_r, split_join.
    - exists [[]]. rewrite split_app_slash, split_join by assumption. now repeat constructor. }
  unfold resolve. rewrite E, norm_segs_app, (norm_plain_id r), (norm_drop _ z), !rev_involutive by assumption.
  reflexivity.
Qed.

Lemma plain_accepted dest r : rooted dest = true -> comps dest <> [] -> Forall plain r -> r <> [] ->
  guard dest (join r) = true /\ comps (join2 dest (join r)) = comps dest ++ r.
Proof.
  intros Hr HD Hp Hne.
  pose proof (resolve_plain_names dest r [] Hp Hne (or_introl eq_refl)) as R. rewrite app_nil_r in R. split.
  - apply (guard_iff _ _ Hr). rewrite R. split; [exact HD | now exists r].
  - now rewrite (comps_join2 _ _ Hr).
Qed.

(* plain names under securePath, optionally written with a trailing slash (zip
   directory entries) *)
Lemma plain_accepted_fixed dest r sfx : rooted dest = true -> comps dest <> [] -> Forall plain r -> r <> [] ->
  (sfx = [] \/ sfx = [SLASH]) ->
  guard_fixed dest (join r ++ sfx) = true /\ comps (secure_target dest (join r ++ sfx)) = comps dest ++ r.
Proof.
  intros Hr HD Hp Hne Hs. pose proof (resolve_plain_names dest r sfx Hp Hne Hs) as R. split.
  - apply (guard_fixed_iff _ _ Hr). rewrite R. right. split; [exact HD | now exists r].
  - now rewrite (comps_secure_target _ _ Hr).
Qed.

Lemma path_eqb_spec p q : reflect (p = q) (path_eqb p q).
Proof.
  destruct (path_eqb p q) eqn:E; constructor.
  - revert E. apply list_eqb_eq, str_eqb_eq.
  - intros ->. rewrite (list_eqb_refl str_eqb) in E; [discriminate|].
    intros a. apply list_eqb_refl, N.eqb_refl.
Qed.

Lemma lookup_set_other fs p n q : q <> p -> lookup (set fs p n) q = lookup fs q.
Proof.
  intros Hne. destruct q as [|a q]; [reflexivity|]. unfold lookup, set. cbn [fs_find].
  now destruct (path_eqb_spec (a :: q) p).
Qed.

Lemma lookup_set_same fs p n : p <> [] -> lookup (set fs p n) p = Some n.
Proof.
  intros Hne. destruct p as [|a p]; [congruence|]. unfold lookup, set. cbn [fs_find].
  now destruct (path_eqb_spec (a :: p) (a :: p)).
Qed.

(* q is a prefix of p *)
Definition pref (q p : path) : Prop := exists s, p = q ++ s.

Lemma pref_refl (p : path) : pref p p.
Proof. exists []. now rewrite app_nil_r. Qed.

Lemma pref_trans (a b c : path) : pref a b -> pref b c -> pref a c.
Proof. intros [s ->] [t ->]. exists (s ++ t). now rewrite app_assoc. Qed.

Lemma pref_app_inv (D a b : path) : pref (D ++ a) (D ++ b) -> pref a b.
Proof. intros [s Hs]. rewrite <- app_assoc in Hs. apply app_inv_head in Hs. now exists s. Qed.

Lemma pref_snoc (q p : path) c : pref q (p ++ [c]) -> pref q p \/ q = p ++ [c].
Proof.
  intros [s E]. destruct s as [|x s _] using rev_ind; [right; now rewrite app_nil_r in E|].
  left. rewrite app_assoc in E. apply app_inj_tail in E as [E _]. now exists s.
Qed.

Lemma pref_parent (p : path) : pref (parent p) p.
Proof.
  destruct p as [|a p]; [apply pref_refl|]. exists [last (a :: p) []].
  now apply app_removelast_last.
Qed.

Lemma parent_not_above (p : path) : p <> [] -> ~ pref p (parent p).
Proof.
  intros H [s Hs]. pose proof (app_removelast_last ([] : str) H) as E. unfold parent in Hs.
  rewrite Hs in E. apply (f_equal (@length _)) in E. rewrite !app_length in E. cbn in E. lia.
Qed.

(* one round of the loop of mkdir_walk (the model of os.MkdirAll) *)
Definition mkdir_one (fs : fsys) (t : path) : option fsys :=
  match lookup fs t with
  | Some Dir => Some fs
  | Some (File _) => None
  | None => Some (set fs t Dir)
  end.

Lemma mkdir_one_changes fs t fs' : t <> [] -> mkdir_one fs t = Some fs' ->
  lookup fs' t = Some Dir /\
  forall q, lookup fs' q = lookup fs q \/ (lookup fs q = None /\ q = t).
Proof.
  intros Ht H. unfold mkdir_one in H.
  destruct (lookup fs t) as [[|d]|] eqn:El; inversion H; subst.
  - split; [exact El | now left].
  - split; [now apply lookup_set_same|]. intros q.
    destruct (path_eqb_spec q t) as [->|Hne]; [now right | left; now apply lookup_set_other].
Qed.

(* MkdirAll handles the last element after all the others *)
Lemma mkdir_walk_snoc : forall rest fs done c,
  mkdir_walk fs done (rest ++ [c]) =
  match mkdir_walk fs done rest with Some fs1 => mkdir_one fs1 (done ++ rest ++ [c]) | None => None end.
Proof.
  induction rest as [|x rest IH]; intros fs done c; cbn [app mkdir_walk].
  - unfold mkdir_one. now destruct (lookup fs (done ++ [c])) as [[|d]|].
  - destruct (lookup fs (done ++ [x])) as [[|d]|]; rewrite ?IH, <- ?app_assoc; reflexivity.
Qed.

Lemma mkdir_all_snoc fs p c :
  mkdir_all fs (p ++ [c]) = match mkdir_all fs p with Some fs1 => mkdir_one fs1 (p ++ [c]) | None => None end.
Proof. apply (mkdir_walk_snoc p fs []). Qed.

(* a successful MkdirAll p only creates directories, at missing prefixes of p *)
Lemma mkdir_all_changes : forall p fs fs', mkdir_all fs p = Some fs' ->
  forall q, lookup fs' q = lookup fs q \/
            (lookup fs q = None /\ lookup fs' q = Some Dir /\ pref q p /\ q <> []).
Proof.
  induction p as [|c p IH] using rev_ind; intros fs fs' H q.
  - inversion H. now left.
  - rewrite mkdir_all_snoc in H. destruct (mkdir_all fs p) as [fs1|] eqn:E1; [|discriminate].
    assert (Ht : p ++ [c] <> []) by now destruct p.
    destruct (mkdir_one_changes _ _ _ Ht H) as [Hd Hch].
    destruct (Hch q) as [E | [N ->]].
    + rewrite E. destruct (IH _ _ E1 q) as [E' | (N' & D' & Hq & Hne)]; [now left|].
      right. repeat split; auto. apply (pref_trans _ _ _ Hq). now exists [c].
    + destruct (IH _ _ E1 (p ++ [c])) as [E' | (_ & D' & _)]; [|congruence].
      right. rewrite <- E'. repeat split; auto. apply pref_refl.
Qed.

(* and leaves a directory at every prefix *)
Lemma mkdir_all_dirs : forall p fs fs', mkdir_all fs p = Some fs' ->
  forall q, pref q p -> lookup fs' q = Some Dir.
Proof.
  induction p as [|c p IH] using rev_ind; intros fs fs' H q Hq.
  - destruct Hq as [s Hs]. symmetry in Hs. now apply app_eq_nil in Hs as [-> _].
  - rewrite mkdir_all_snoc in H. destruct (mkdir_all fs p) as [fs1|] eqn:E1; [|discriminate].
    assert (Ht : p ++ [c] <> []) by now destruct p.
    destruct (mkdir_one_changes _ _ _ Ht H) as [Hd Hch].
    destruct (pref_snoc _ _ _ Hq) as [Hq' | ->]; [|exact Hd].
    specialize (IH _ _ E1 q Hq'). destruct (Hch q) as [E | [N _]]; congruence.
Qed.

(* it succeeds when no file is in the way *)
Lemma mkdir_all_succeeds : forall p fs, (forall q d, pref q p -> lookup fs q <> Some (File d)) ->
  exists fs', mkdir_all fs p = Some fs'.
Proof.
  induction p as [|c p IH] using rev_ind; intros fs H; [now exists fs|].
  destruct (IH fs) as [fs1 E1].
  { intros q d Hq. apply H, (pref_trans _ _ _ Hq). now exists [c]. }
  rewrite mkdir_all_snoc, E1. unfold mkdir_one.
  destruct (lookup fs1 (p ++ [c])) as [[|d]|] eqn:El; eauto. exfalso.
  destruct (mkdir_all_changes _ _ _ E1 (p ++ [c])) as [E | (_ & E & _)]; [|congruence].
  rewrite El in E. symmetry in E. exact (H _ d (pref_refl _) E).
Qed.

Definition frame (D : path) (fs fs' : fsys) : Prop := forall q, ~ sunder D q -> lookup fs' q = lookup fs q.
Definition dest_exists (fs : fsys) (D : path) : Prop := forall k, lookup fs (firstn k D) = Some Dir.

Lemma frame_refl D fs : frame D fs fs.
Proof. intros q _. reflexivity. Qed.

Lemma frame_trans D a b c : frame D a b -> frame D b c -> frame D a c.
Proof. intros H1 H2 q Hq. now rewrite (H2 q Hq), (H1 q Hq). Qed.

Lemma sunder_length D q : sunder D q -> (length D < length q)%nat.
Proof. intros [r [Hne ->]]. rewrite app_length. destruct r; [congruence|]. cbn. lia. Qed.

Lemma firstn_not_under D k : ~ sunder D (firstn k D).
Proof. intros H. apply sunder_length in H. rewrite firstn_length in H. lia. Qed.

Lemma frame_dest_exists D fs fs' : frame D fs fs' -> dest_exists fs D -> dest_exists fs' D.
Proof. intros HF HE k. rewrite (HF _ (firstn_not_under D k)). apply HE. Qed.

Lemma pref_split (q D r : path) : pref q (D ++ r) -> (exists k, q = firstn k D) \/ sunder D q.
Proof.
  intros [s Hs]. symmetry in Hs. apply app_eq_app in Hs as [l [[E1 E2] | [E1 E2]]].
  - destruct l as [|x l].
    + left. exists (length D). rewrite app_nil_r in E1. subst q. now rewrite firstn_all.
    + right. exists (x :: l). split; [discriminate | exact E1].
  - left. exists (length q). rewrite E1. rewrite firstn_app, firstn_all, Nat.sub_diag. cbn. now rewrite app_nil_r.
Qed.

Lemma mkdir_all_frame D r p fs fs' : dest_exists fs D -> pref p (D ++ r) ->
  mkdir_all fs p = Some fs' -> frame D fs fs'.
Proof.
  intros HE Hp H q Hq.
  destruct (mkdir_all_changes _ _ _ H q) as [E | [E1 [_ [Hpref _]]]]; [exact E|]. exfalso.
  destruct (pref_split q D r (pref_trans _ _ _ Hpref Hp)) as [[k ->] | Hs];
    [rewrite HE in E1; discriminate | exact (Hq Hs)].
Qed.

Lemma put_dir_frame D r fs : dest_exists fs D -> frame D fs (fst (put_dir fs (D ++ r))).
Proof.
  intros HE. unfold put_dir. destruct (mkdir_all fs (D ++ r)) as [fs1|] eqn:Em; [|apply frame_refl].
  exact (mkdir_all_frame D r _ fs fs1 HE (pref_refl _) Em).
Qed.

Lemma write_file_changes t fs p data fs' : write_file t fs p data = Some fs' ->
  lookup fs p <> Some Dir /\ (forall q, q <> p -> lookup fs' q = lookup fs q) /\
  (t = true -> lookup fs' p = Some (File data)).
Proof.
  unfold write_file. destruct p as [|a p]; [discriminate|].
  destruct (lookup fs (parent (a :: p))) as [[|d]|]; [|discriminate|discriminate].
  (* the parent is a directory; the file replaces an old one or is new *)
  destruct (lookup fs (a :: p)) as [[|old]|]; [discriminate| |]; intros H; inversion H; subst.
  - split; [discriminate|]. split; [intros q Hq; now apply lookup_set_other|].
    intros ->. now apply lookup_set_same.
  - split; [discriminate|]. split; [intros q Hq; now apply lookup_set_other|].
    intros _. now apply lookup_set_same.
Qed.

Lemma put_file_frame D r t fs data : dest_exists fs D ->
  frame D fs (fst (put_file t true fs (D ++ r) data)).
Proof.
  intros HE. unfold put_file.
  destruct (mkdir_all fs (parent (D ++ r))) as [fs1|] eqn:Em; [|apply frame_refl].
  pose proof (mkdir_all_frame D r _ fs fs1 HE (pref_parent _) Em) as F1.
  destruct (write_file t fs1 (D ++ r) data) as [fs2|] eqn:Ew; [|exact F1].
  apply write_file_changes in Ew as (Hnd & Hch & _). apply (frame_trans _ _ _ _ F1).
  intros q Hq. apply Hch. intros ->. destruct r as [|x r].
  - (* the target would be the destination itself, which is a directory *)
    apply Hnd. rewrite app_nil_r.
    pose proof (frame_dest_exists _ _ _ F1 HE (length D)) as Hd. now rewrite firstn_all in Hd.
  - apply Hq. exists (x :: r). split; [discriminate | reflexivity].
Qed.

Lemma targz_frame fixed dest : rooted dest = true -> forall es fs,
  dest_exists fs (comps dest) -> frame (comps dest) fs (fst (extract_targz fixed dest es fs)).
Proof.
  intros Hr. induction es as [|e es IH]; intros fs HE; cbn [extract_targz]; [apply frame_refl|].
  assert (Continue : forall r : fsys * bool, frame (comps dest) fs (fst r) ->
              frame (comps dest) fs (fst (if snd r then extract_targz fixed dest es (fst r) else r))).
  { intros [fs1 [|]] F1; cbn [fst snd] in *; [|exact F1].
    apply (frame_trans _ _ _ _ F1), IH. exact (frame_dest_exists _ _ _ F1 HE). }
  destruct (if fixed then guard_fixed dest (te_name e) else guard dest (te_name e)) eqn:Hg;
    cbn [negb]; [|apply frame_refl].
  destruct (checked_target fixed dest (te_name e) Hr Hg) as (rest & _ & _ & ->).
  destruct (te_kind e); [apply Continue, put_file_frame | apply Continue, put_dir_frame | apply IH]; exact HE.
Qed.

(* extractZip (with securePath and MkdirAll of the parent) is extractTarGz on
   the same entries: a directory entry is a TypeDir header, any other a TypeReg *)
Definition zip_entry (e : zentry) : tentry :=
  TE (ze_name e) (if ze_isdir e then TDir else TReg) (ze_data e).

Lemma zip_as_targz dest : forall es fs,
  extract_zip true dest es fs = extract_targz true dest (map zip_entry es) fs.
Proof.
  induction es as [|e es IH]; intros fs; [reflexivity|].
  cbn [map extract_zip extract_targz zip_entry te_name te_kind te_data andb].
  destruct (negb (guard_fixed dest (ze_name e))); [reflexivity|].
  destruct (ze_isdir e); cbn zeta; now rewrite IH.
Qed.

Definition went := (path * tkind * list N)%type.       (* relative path elements, kind, bytes *)
Definition w_rel (w : went) : path := fst (fst w).
Definition w_kind (w : went) : tkind := snd (fst w).
Definition w_data (w : went) : list N := snd w.
Definition to_entry (w : went) : tentry := TE (join (w_rel w)) (w_kind w) (w_data w).
(* zip: directory entries carry a trailing slash *)
Definition w_isdir (w : went) : bool := match w_kind w with TDir => true | _ => false end.
Definition to_zentry (w : went) : zentry :=
  ZE (join (w_rel w) ++ (if w_isdir w then [SLASH] else [])) (w_isdir w) (w_data w).

Definition expected (w : went) : option node :=
  match w_kind w with TReg => Some (File (w_data w)) | _ => Some Dir end.

(* names are non-empty lists of plain elements, only files and directories,
   and the path of a file is not a prefix of (in particular not equal to) the
   path of any other entry *)
Fixpoint wf_entries (ws : list went) : Prop :=
  match ws with
  | [] => True
  | w :: ws' =>
    Forall plain (w_rel w) /\ w_rel w <> [] /\ w_kind w <> TOther /\
    (forall w', In w' ws' ->
       (w_kind w = TReg -> ~ pref (w_rel w) (w_rel w')) /\
       (w_kind w' = TReg -> ~ pref (w_rel w') (w_rel w))) /\
    wf_entries ws'
  end.

Lemma wf_entries_each ws : wf_entries ws -> forall w, In w ws ->
  Forall plain (w_rel w) /\ w_rel w <> [] /\ w_kind w <> TOther.
Proof.
  induction ws as [|w ws IH]; intros Hwf w0 []; destruct Hwf as (Hp & Hne & Hk & _ & Hwf'); subst; auto.
Qed.

(* wf_entries decided by a boolean function (plainb, wf_entriesb); its one use
   is the example archive ex_ws of Props.v, shown well-formed by evaluation *)
Definition plainb (s : str) : bool :=
  negb (is_nil s) && negb (is_dot s) && negb (is_dotdot s) && negb (existsb (N.eqb SLASH) s).

Lemma plainb_plain s : plainb s = true -> plain s.
Proof.
  unfold plainb, plain.
  destruct (is_nil s) eqn:H1, (is_dot s), (is_dotdot s), (existsb (N.eqb SLASH) s) eqn:H4; try discriminate.
  intros _. repeat split.
  - intros ->. discriminate.
  - intros Hin. rewrite <- not_true_iff_false in H4. apply H4, existsb_exists.
    exists SLASH. split; [exact Hin | apply N.eqb_refl].
Qed.

Lemma is_prefix_pref p q : pref p q -> is_prefix p q = true.
Proof.
  intros [s ->]. induction p as [|a p IH]; [reflexivity|]. cbn [app is_prefix].
  rewrite IH, andb_true_r. apply list_eqb_refl, N.eqb_refl.
Qed.

Definition is_reg (w : went) : bool := match w_kind w with TReg => true | _ => false end.

Fixpoint wf_entriesb (ws : list went) : bool :=
  match ws with
  | [] => true
  | w :: ws' =>
    forallb plainb (w_rel w) && negb (is_nil (w_rel w)) &&
    match w_kind w with TOther => false | _ => true end &&
    forallb (fun w' => negb (is_reg w && is_prefix (w_rel w) (w_rel w')) &&
                       negb (is_reg w' && is_prefix (w_rel w') (w_rel w))) ws' &&
    wf_entriesb ws'
  end.

Lemma wf_entriesb_wf ws : wf_entriesb ws = true -> wf_entries ws.
Proof.
  induction ws as [|w ws IH]; [constructor|]. cbn [wf_entriesb wf_entries].
  intros H. apply andb_true_iff in H as [H H5]. apply andb_true_iff in H as [H H4].
  apply andb_true_iff in H as [H H3]. apply andb_true_iff in H as [H1 H2].
  pose proof (proj1 (forallb_forall _ _) H1) as P1. pose proof (proj1 (forallb_forall _ _) H4) as P4.
  split; [apply Forall_forall; intros s Hs; apply plainb_plain, P1, Hs|].
  split; [intros E; rewrite E in H2; discriminate|].
  split; [intros E; rewrite E in H3; discriminate|].
  split; [|exact (IH H5)].
  intros w' Hw'. destruct (proj1 (andb_true_iff _ _) (P4 w' Hw')) as [A B].
  unfold is_reg in A, B.
  split; intros Hreg Hp; apply is_prefix_pref in Hp; rewrite Hreg, Hp in *; discriminate.
Qed.

(* what both extractors do with a well-formed entry once the name is resolved *)
Definition place (D : path) (w : went) (fs : fsys) : fsys * bool :=
  match w_kind w with
  | TReg => put_file true true fs (D ++ w_rel w) (w_data w)
  | _ => put_dir fs (D ++ w_rel w)
  end.

Fixpoint place_all (D : path) (ws : list went) (fs : fsys) : fsys * bool :=
  match ws with
  | [] => (fs, true)
  | w :: ws' => let r := place D w fs in if snd r then place_all D ws' (fst r) else r
  end.

(* both formats name a well-formed entry by its joined relative path; zip puts a
   slash after the name of a directory *)
Lemma targz_place_sfx dest (sfx : went -> str) : rooted dest = true -> comps dest <> [] ->
  (forall w, sfx w = [] \/ sfx w = [SLASH]) -> forall ws fs, wf_entries ws ->
  extract_targz true dest (map (fun w => TE (join (w_rel w) ++ sfx w) (w_kind w) (w_data w)) ws) fs
  = place_all (comps dest) ws fs.
Proof.
  intros Hr HD Hs. induction ws as [|w ws IH]; intros fs Hwf; [reflexivity|].
  destruct Hwf as (Hp & Hne & Hk & _ & Hwf').
  destruct (plain_accepted_fixed dest (w_rel w) (sfx w) Hr HD Hp Hne (Hs w)) as [Hg Ht].
  cbn [map extract_targz place_all te_name te_kind te_data]. rewrite Hg, Ht. cbn [negb].
  unfold place. destruct (w_kind w); [| |congruence]; cbn zeta; rewrite (IH _ Hwf'); reflexivity.
Qed.

Lemma targz_place_all dest : rooted dest = true -> comps dest <> [] -> forall ws fs, wf_entries ws ->
  extract_targz true dest (map to_entry ws) fs = place_all (comps dest) ws fs.
Proof.
  intros Hr HD ws fs Hwf.
  rewrite <- (targz_place_sfx dest (fun _ => []) Hr HD (fun _ => or_introl eq_refl) ws fs Hwf).
  f_equal. apply map_ext. intros w. unfold to_entry. now rewrite app_nil_r.
Qed.

Lemma zip_place_all dest : rooted dest = true -> comps dest <> [] -> forall ws fs, wf_entries ws ->
  extract_zip true dest (map to_zentry ws) fs = place_all (comps dest) ws fs.
Proof.
  intros Hr HD ws fs Hwf. rewrite zip_as_targz, map_map.
  rewrite <- (targz_place_sfx dest (fun w => if w_isdir w then [SLASH] else []) Hr HD)
    by (exact Hwf || (intros w; destruct (w_isdir w); auto)).
  f_equal. apply map_ext_in. intros w Hw. destruct (wf_entries_each ws Hwf w Hw) as (_ & _ & Hk).
  unfold zip_entry, to_zentry, w_isdir. cbn [ze_name ze_isdir ze_data].
  destruct (w_kind w); [reflexivity | reflexivity | congruence].
Qed.

(* no file lies on the way to an entry, and nothing is where a file will go *)
Definition inv (D : path) (fs : fsys) (ws : list went) : Prop :=
  forall w, In w ws ->
    (forall q d, pref q (D ++ w_rel w) -> lookup fs q <> Some (File d)) /\
    (w_kind w = TReg -> lookup fs (D ++ w_rel w) = None).

(* The last disjunction (what is new is a directory, or the file of w itself)
   is what keeps the first clause of inv true for the entries still to come. *)
Lemma place_ok D w fs : D <> [] -> w_kind w <> TOther -> inv D fs [w] ->
  exists fs2, place D w fs = (fs2, true) /\
    lookup fs2 (D ++ w_rel w) = expected w /\
    forall q, lookup fs2 q = lookup fs q \/
              (lookup fs q = None /\ pref q (D ++ w_rel w) /\ q <> [] /\
               (lookup fs2 q = Some Dir \/ (q = D ++ w_rel w /\ w_kind w = TReg))).
Proof.
  intros HD Hk Hinv. destruct (Hinv w (or_introl eq_refl)) as [Ha Hb]. set (p := D ++ w_rel w) in *.
  assert (Hp : p <> []) by (subst p; destruct D; [congruence | discriminate]).
  unfold place, expected. fold p. destruct (w_kind w) eqn:Ek; [| |congruence].
  - unfold put_file.
    destruct (mkdir_all_succeeds (parent p) fs) as [fs1 Em].
    { intros q d Hq. apply Ha. exact (pref_trans _ _ _ Hq (pref_parent p)). }
    pose proof (mkdir_all_changes _ _ _ Em) as Hch. rewrite Em.
    assert (Hnone : lookup fs1 p = None).
    { destruct (Hch p) as [E | [_ [_ [Hq _]]]]; [rewrite E; now apply Hb|].
      destruct (parent_not_above p Hp Hq). }
    unfold write_file. destruct p as [|a p'] eqn:EP; [congruence|]. rewrite <- EP in *.
    rewrite (mkdir_all_dirs _ _ _ Em _ (pref_refl _)), Hnone.
    exists (set fs1 p (File (w_data w))). split; [reflexivity|]. split; [now apply lookup_set_same|].
    intros q. destruct (path_eqb_spec q p) as [->|Hne].
    + right. split; [now apply Hb|]. split; [apply pref_refl|]. split; [exact Hp|]. now right.
    + rewrite lookup_set_other by exact Hne.
      destruct (Hch q) as [E | [E1 [E2 [E3 E4]]]]; [now left|]. right. repeat split; auto.
      exact (pref_trans _ _ _ E3 (pref_parent p)).
  - unfold put_dir. destruct (mkdir_all_succeeds p fs Ha) as [fs1 Em].
    rewrite Em. exists fs1. split; [reflexivity|]. split; [apply (mkdir_all_dirs _ _ _ Em), pref_refl|].
    intros q. destruct (mkdir_all_changes _ _ _ Em q) as [E | [E1 [E2 [E3 E4]]]]; [now left|].
    right. repeat split; auto.
Qed.

Lemma place_all_wellformed D : D <> [] ->
  forall ws fs, wf_entries ws -> inv D fs ws ->
  exists fs', place_all D ws fs = (fs', true) /\
    (forall w, In w ws -> lookup fs' (D ++ w_rel w) = expected w) /\
    (forall q, lookup fs' q = lookup fs q \/
               (lookup fs q = None /\ q <> [] /\ exists w, In w ws /\ pref q (D ++ w_rel w))).
Proof.
  intros HD. induction ws as [|w ws IH]; intros fs Hwf Hinv.
  - exists fs. split; [reflexivity|]. split; [intros w []|]. intros q. now left.
  - destruct Hwf as [Hp [Hne [Hk [Hpair Hwf']]]].
    destruct (place_ok D w fs HD Hk) as [fs2 [Estep [Hexp Hch]]].
    { intros w0 [<- | []]. apply Hinv. now left. }
    assert (Hinv2 : inv D fs2 ws).
    { intros w' Hw'. destruct (Hinv w' (or_intror Hw')) as [Ha Hb].
      destruct (Hpair w' Hw') as [P1 P2]. split.
      - (* the only new file is w itself, and it is not on the way to w' *)
        intros q d Hq E. destruct (Hch q) as [E' | [_ [_ [_ [E' | [-> Hreg]]]]]].
        + rewrite E' in E. exact (Ha q d Hq E).
        + rewrite E' in E. discriminate.
        + apply (P1 Hreg). now apply pref_app_inv in Hq.
      - intros Hreg. destruct (Hch (D ++ w_rel w')) as [E | [_ [Hq _]]]; [rewrite E; now apply Hb|].
        destruct (P2 Hreg). now apply pref_app_inv in Hq. }
    destruct (IH fs2 Hwf' Hinv2) as [fs' [Erun [Hall Hch']]].
    exists fs'. split; [cbn [place_all]; rewrite Estep; cbn [fst snd]; exact Erun|]. split.
    + intros w0 [<- | Hw0]; [|now apply Hall].
      destruct (Hch' (D ++ w_rel w)) as [E | [E _]]; [now rewrite E|].
      rewrite Hexp in E. unfold expected in E. destruct (w_kind w); discriminate.
    + (* what the first step created was missing before; otherwise the rest decides *)
      intros q. destruct (Hch q) as [E | (N & Hq & Hne0 & _)].
      * destruct (Hch' q) as [E' | (N' & Hne' & w' & Hw' & Hq')]; [left; congruence|].
        right. rewrite <- E. split; [exact N'|]. split; [exact Hne'|]. exists w'. split; [now right | exact Hq'].
      * right. split; [exact N|]. split; [exact Hne0|]. exists w. split; [now left | exact Hq].
Qed.

Lemma empty_dest_inv D ws fs :
  dest_exists fs D -> (forall q, sunder D q -> lookup fs q = None) -> wf_entries ws -> inv D fs ws.
Proof.
  intros HE Hempty Hwf w Hw. split.
  - intros q d Hq. destruct (pref_split _ _ _ Hq) as [[k ->] | Hs];
      [rewrite HE | rewrite (Hempty _ Hs)]; discriminate.
  - intros _. apply Hempty. exists (w_rel w). split; [apply (wf_entries_each ws Hwf w Hw) | reflexivity].
Qed.
