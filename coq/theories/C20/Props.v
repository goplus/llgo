(* C20 - property theorems only.  Model: C20.Model (extractTarGz / extractZip of
   internal/crosscompile/fetch.go as written, over a lexical model of
   filepath.Clean/Join that is compared with the real functions on every run). *)
From Coq Require Import String.
From LLGoV Require Import C20.Model C20.Proofs.
Local Open Scope N_scope.
Local Open Scope list_scope.

(* fixed = true: the code as it is now (securePath used by both extractors,
   MkdirAll of the parent in extractZip, O_TRUNC in extractTarGz);
   fixed = false: before these fixes, kept for the refutations at the end. *)

(* securePath, for EVERY entry name (.. at any depth, absolute, empty, repeated
   separators): if the check passes, the cleaned target is the cleaned destination
   followed by zero or more elements, all of them plain names (not empty, not .,
   not .., no separator) - the OS reaches the target by stepping down from the
   destination only. *)
Theorem guard_implies_confined : forall dest name,
  rooted dest = true -> guard_fixed dest name = true ->
  exists rest, Forall plain rest /\ comps (secure_target dest name) = comps dest ++ rest.
Proof.
  intros dest name Hr Hg. destruct (checked_target true dest name Hr Hg) as (rest & Hp & _ & E). eauto.
Qed.
Print Assumptions guard_implies_confined.

(* the check is not vacuous: every relative name made of plain elements (with or
   without the trailing slash of zip directory entries) passes and lands where expected *)
Theorem plain_names_accepted : forall dest r sfx,
  rooted dest = true -> comps dest <> [] -> Forall plain r -> r <> [] -> (sfx = [] \/ sfx = [SLASH]) ->
  guard_fixed dest (join r ++ sfx) = true /\ comps (secure_target dest (join r ++ sfx)) = comps dest ++ r.
Proof. exact plain_accepted_fixed. Qed.
Print Assumptions plain_names_accepted.

(* names made of empty and . elements only - the root entry ./ that tar -c . writes
   first - name the destination itself and are accepted *)
Theorem root_entry_accepted : forall dest name,
  rooted dest = true -> Forall (fun s => is_nil s || is_dot s = true) (split name) ->
  guard_fixed dest name = true /\ comps (secure_target dest name) = comps dest.
Proof.
  intros dest name Hr Hd.
  assert (R : resolve dest name = comps dest) by (unfold resolve; now rewrite norm_drop, rev_involutive).
  split; [apply (guard_fixed_iff _ _ Hr); now left | now rewrite (comps_secure_target _ _ Hr)].
Qed.
Print Assumptions root_entry_accepted.

(* Both extractors: whatever the entries are and whether or not the call fails
   half-way, nothing outside the (existing) destination is created or changed:
   every path that is not strictly below dest has the same node before and after. *)
Theorem targz_all_writes_confined : forall dest es fs fs' ok,
  rooted dest = true -> dest_exists fs (comps dest) ->
  extract_targz true dest es fs = (fs', ok) ->
  forall q, ~ sunder (comps dest) q -> lookup fs' q = lookup fs q.
Proof.
  intros dest es fs fs' ok Hr HE H. pose proof (targz_frame true dest Hr es fs HE) as F.
  rewrite H in F. exact F.
Qed.
Print Assumptions targz_all_writes_confined.

Theorem zip_all_writes_confined : forall dest es fs fs' ok,
  rooted dest = true -> dest_exists fs (comps dest) ->
  extract_zip true dest es fs = (fs', ok) ->
  forall q, ~ sunder (comps dest) q -> lookup fs' q = lookup fs q.
Proof.
  intros dest es fs fs' ok Hr HE H. rewrite zip_as_targz in H.
  exact (targz_all_writes_confined dest _ fs fs' ok Hr HE H).
Qed.
Print Assumptions zip_all_writes_confined.

(* Well-formed archives (relative names of plain elements, files and
   directories only, no file path is a prefix of another entry's path; parents
   may be implicit) unpacked into an existing empty destination: the call
   succeeds, every entry is there with exactly its bytes, and nothing else was
   created except the directories leading to the entries.  Both formats. *)
Theorem targz_wellformed_contents_exact : forall dest ws fs,
  rooted dest = true -> comps dest <> [] ->
  dest_exists fs (comps dest) -> (forall q, sunder (comps dest) q -> lookup fs q = None) ->
  wf_entries ws ->
  exists fs', extract_targz true dest (map to_entry ws) fs = (fs', true) /\
    (forall w, In w ws -> lookup fs' (comps dest ++ w_rel w) = expected w) /\
    (forall q, lookup fs' q = lookup fs q \/
               (lookup fs q = None /\ q <> [] /\ exists w, In w ws /\ pref q (comps dest ++ w_rel w))).
Proof.
  intros dest ws fs Hr HD HE Hempty Hwf. rewrite (targz_place_all dest Hr HD ws fs Hwf).
  apply place_all_wellformed; [exact HD | exact Hwf | now apply empty_dest_inv].
Qed.
Print Assumptions targz_wellformed_contents_exact.

Theorem zip_wellformed_contents_exact : forall dest ws fs,
  rooted dest = true -> comps dest <> [] ->
  dest_exists fs (comps dest) -> (forall q, sunder (comps dest) q -> lookup fs q = None) ->
  wf_entries ws ->
  exists fs', extract_zip true dest (map to_zentry ws) fs = (fs', true) /\
    (forall w, In w ws -> lookup fs' (comps dest ++ w_rel w) = expected w) /\
    (forall q, lookup fs' q = lookup fs q \/
               (lookup fs q = None /\ q <> [] /\ exists w, In w ws /\ pref q (comps dest ++ w_rel w))).
Proof.
  intros dest ws fs Hr HD HE Hempty Hwf. rewrite (zip_place_all dest Hr HD ws fs Hwf).
  apply place_all_wellformed; [exact HD | exact Hwf | now apply empty_dest_inv].
Qed.
Print Assumptions zip_wellformed_contents_exact.

(* a file that is written again (repeated member, or a file that was there
   before) holds exactly the new bytes afterwards: the open truncates *)
Theorem rewritten_file_holds_new_bytes : forall fs p data fs',
  write_file true fs p data = Some fs' -> lookup fs' p = Some (File data).
Proof. intros fs p data fs' H. now apply (write_file_changes true fs p data fs' H). Qed.
Print Assumptions rewritten_file_holds_new_bytes.

Definition ex_dest : str := bs "/s/l3/dest".
Definition ex_fs : fsys := dirs_to (comps ex_dest).

Example fixed_witnesses :
  (* zip: ../evil is rejected, nothing written *)
  extract_zip true ex_dest [ZE (bs "../evil") false (bs "EVIL")] ex_fs = (ex_fs, false)
  (* zip: parents are created *)
  /\ (let r := extract_zip true ex_dest [ZE (bs "a/b.txt") false (bs "hello")] ex_fs in
      snd r = true /\ lookup (fst r) (comps ex_dest ++ [bs "a"; bs "b.txt"]) = Some (File (bs "hello")))
  (* tar: the later member replaces the earlier one completely *)
  /\ (let r := extract_targz true ex_dest [TE (bs "f") TReg (bs "0123456789"); TE (bs "f") TReg (bs "AB")] ex_fs in
      snd r = true /\ lookup (fst r) (comps ex_dest ++ [bs "f"]) = Some (File (bs "AB")))
  (* tar: the ./ root entry is accepted *)
  /\ (let r := extract_targz true ex_dest [TE (bs "./") TDir []; TE (bs "./g") TReg (bs "x")] ex_fs in
      snd r = true /\ lookup (fst r) (comps ex_dest ++ [bs "g"]) = Some (File (bs "x"))).
Proof. vm_compute. repeat split; reflexivity. Qed.

(* ---------- before the fixes (finding F14, repaired) ---------- *)

(* the old prefix test of extractTarGz was sound as well *)
Theorem unfixed_guard_implies_confined : forall dest name,
  rooted dest = true -> guard dest name = true ->
  exists rest, rest <> [] /\ Forall plain rest /\
               comps (join2 dest name) = comps dest ++ rest.
Proof.
  intros dest name Hr Hg. destruct (checked_target false dest name Hr Hg) as (rest & Hp & Hne & E). eauto.
Qed.
Print Assumptions unfixed_guard_implies_confined.

(* extractZip had no check: an entry ../evil was written next to the
   destination and the call reported success *)
Theorem unfixed_zip_slip_refuted :
  exists es q, rooted ex_dest = true /\ dest_exists ex_fs (comps ex_dest) /\
    snd (extract_zip false ex_dest es ex_fs) = true /\
    ~ sunder (comps ex_dest) q /\
    lookup (fst (extract_zip false ex_dest es ex_fs)) q <> lookup ex_fs q.
Proof.
  exists [ZE (bs "../evil") false (bs "EVIL")], [bs "s"; bs "l3"; bs "evil"].
  split; [reflexivity|]. split; [intros [|[|[|[|k]]]]; reflexivity|].
  split; [reflexivity|]. split.
  - intros H. apply sunder_length in H. vm_compute in H. lia.
  - vm_compute. discriminate.
Qed.
Print Assumptions unfixed_zip_slip_refuted.

(* a repeated member kept the tail of the longer earlier version (no O_TRUNC) *)
Theorem unfixed_dup_entry_stale_tail_refuted :
  let r := extract_targz false ex_dest [TE (bs "f") TReg (bs "0123456789"); TE (bs "f") TReg (bs "AB")] ex_fs in
  snd r = true /\ lookup (fst r) (comps ex_dest ++ [bs "f"]) = Some (File (bs "AB23456789")).
Proof. vm_compute. split; reflexivity. Qed.
Print Assumptions unfixed_dup_entry_stale_tail_refuted.

(* the root entry ./ was rejected, nothing was unpacked *)
Theorem unfixed_dot_slash_entry_refuted :
  extract_targz false ex_dest [TE (bs "./") TDir []; TE (bs "./g") TReg (bs "x")] ex_fs = (ex_fs, false).
Proof. vm_compute. reflexivity. Qed.
Print Assumptions unfixed_dot_slash_entry_refuted.

(* extractZip did not create parent directories: a/b.txt without an a/ entry failed *)
Theorem unfixed_zip_no_parent_refuted :
  extract_zip false ex_dest [ZE (bs "a/b.txt") false (bs "hello")] ex_fs = (ex_fs, false).
Proof. vm_compute. reflexivity. Qed.
Print Assumptions unfixed_zip_no_parent_refuted.

(* securePath on sample names, by evaluation of the model: names that leave the
   destination are rejected, names that stay inside (however written) pass *)
Example ex_guard_rejects :
  map (guard_fixed ex_dest) [bs "../evil"; bs "a/../../evil"; bs "../destx"; bs "../../dest"; bs "a/../.."]
  = [false; false; false; false; false].
Proof. vm_compute. reflexivity. Qed.

Example ex_guard_accepts :
  map (guard_fixed ex_dest) [bs "a"; bs "a//b/./c"; bs "/etc/passwd"; bs "../dest/in"; bs "x/../y"; bs "..."; bs ""; bs "./"; bs "a/.."]
  = [true; true; true; true; true; true; true; true; true].
Proof. vm_compute. reflexivity. Qed.

Definition ex_ws : list went :=
  [([bs "a"], TDir, []); ([bs "a"; bs "b.txt"], TReg, bs "hello"); ([bs "c"; bs "d"; bs "e"], TReg, []); ([bs "a"; bs "k"], TDir, [])].

Example ex_wf : wf_entries ex_ws.
Proof. apply wf_entriesb_wf. vm_compute. reflexivity. Qed.

Example ex_wf_result :
  let r := extract_zip true ex_dest (map to_zentry ex_ws) ex_fs in
  snd r = true /\ lookup (fst r) (comps ex_dest ++ [bs "a"; bs "b.txt"]) = Some (File (bs "hello"))
  /\ lookup (fst r) (comps ex_dest ++ [bs "c"; bs "d"]) = Some Dir.
Proof. vm_compute. repeat split; reflexivity. Qed.
