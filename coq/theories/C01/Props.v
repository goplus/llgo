(* C01 - property theorems only (the part of "compiled programs behave as Go
   specifies" that is a statement about llgo's own control-flow bookkeeping;
   operators, bounds checks and defer are C02, C03 and C04). *)
From LLGoV Require Import C01.Model C01.Proofs.
From Coq Require Import Permutation.

(* An order accepted by the validator compiles every block of the function
   exactly once and starts with the entry block.  The check runs the validator
   on the order the real cl/blocks.Infos returns for every generated function
   and for random CFGs. *)
Theorem order_valid_is_permutation : forall g o,
  order_valid g o = true ->
  Permutation o (seq 0 (length g)) /\ (0 < length g -> hd_error o = Some 0).
Proof.
  intros g o H. destruct (order_valid_spec g o H) as (L & B & ND & Hd). split; [|exact Hd].
  apply NoDup_Permutation_bis; [exact ND | rewrite seq_length; lia |].
  intros x Hx. apply in_seq. specialize (B x Hx). lia.
Qed.
Print Assumptions order_valid_is_permutation.

Theorem order_valid_each_block_once : forall g o i,
  order_valid g o = true -> i < length g -> count_occ Nat.eq_dec o i = 1.
Proof.
  intros g o i H Hi. destruct (order_valid_is_permutation g o H) as [P _].
  rewrite (Permutation_count_occ Nat.eq_dec) in P. rewrite P.
  apply (NoDup_count_occ' Nat.eq_dec); [apply seq_NoDup | apply in_seq; lia].
Qed.
Print Assumptions order_valid_each_block_once.

Example order_valid_nontrivial :
  order_valid [[1; 2]; [3]; [3]; [1]] [0; 2; 1; 3] = true
  /\ order_valid [[1; 2]; [3]; [3]; [1]] [0; 2; 2; 3] = false.
Proof. split; reflexivity. Qed.

(* The loop marks the check demands of Infos (a block is "in a loop" iff the
   specification says so) mean exactly: the block lies on a cycle of the CFG -
   for paths of any length. *)
Theorem inloop_iff_cycle : forall g i,
  wf_cfg g -> i < length g ->
  (nth i (inloop_spec g) false = true <-> path g i i).
Proof. intros g i W Hi. rewrite inloop_spec_nth by exact Hi. now apply reach_from_path. Qed.
Print Assumptions inloop_iff_cycle.

Example inloop_nontrivial :
  inloop_spec [[1]; [2; 4]; [3]; [1]; []] = [false; true; true; true; false].
Proof. reflexivity. Qed.
