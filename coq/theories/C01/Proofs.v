(* C01 - lemmas.  What the order validator checks (order_valid_spec), and that membership in
   reach_from g i is exactly the existence of a path from i (reach_from_path): soundness by an
   invariant of the iteration, completeness because round length g of the iteration is closed
   under successors (iterate_closed, closed_path). *)
From LLGoV Require Import C01.Model.
From Coq Require Import Lia Permutation.

Lemma memb_In x l : memb x l = true <-> In x l.
Proof.
  induction l as [|y l IH]; cbn; [split; [discriminate|tauto]|].
  rewrite Bool.orb_true_iff, Nat.eqb_eq, IH. split; intros [H|H]; auto.
Qed.

Lemma nodupb_NoDup l : nodupb l = true -> NoDup l.
Proof.
  induction l as [|x l IH]; cbn; [constructor|].
  intros H. apply andb_true_iff in H as [H1 H2]. constructor; [|auto].
  intros Hin. apply memb_In in Hin. rewrite Hin in H1. discriminate.
Qed.

Lemma order_valid_spec g o : order_valid g o = true ->
  length o = length g /\ (forall x, In x o -> x < length g) /\ NoDup o /\
  (0 < length g -> hd_error o = Some 0).
Proof.
  unfold order_valid. intros H.
  apply andb_true_iff in H as [H H4]. apply andb_true_iff in H as [H H3].
  apply andb_true_iff in H as [H1 H2]. apply Nat.eqb_eq in H1.
  split; [exact H1|]. split; [|split; [now apply nodupb_NoDup|]].
  - intros x Hx. rewrite forallb_forall in H2. now apply Nat.ltb_lt, H2.
  - intros Hn. destruct o as [|[|k] o]; cbn in *; try reflexivity; try discriminate.
    apply Nat.eqb_eq in H4. lia.
Qed.

(* loop membership = reachability through at least one edge *)

Inductive path (g : cfg) : nat -> nat -> Prop :=
| path_edge i j : In j (succs g i) -> path g i j
| path_step i k j : In k (succs g i) -> path g k j -> path g i j.

(* paths of at most n+1 edges *)
Inductive path_le (g : cfg) : nat -> nat -> nat -> Prop :=
| ple_edge n i j : In j (succs g i) -> path_le g n i j
| ple_step n i k j : path_le g n i k -> In j (succs g k) -> path_le g (S n) i j.

Lemma path_snoc g i k j : path g i k -> In j (succs g k) -> path g i j.
Proof.
  induction 1 as [i k H|i m k H Hp IH]; intros Hj.
  - eapply path_step; [exact H|]. now apply path_edge.
  - eapply path_step; [exact H|]. now apply IH.
Qed.

Lemma path_le_path g n i j : path_le g n i j -> path g i j.
Proof. induction 1; [now apply path_edge | eapply path_snoc; eauto]. Qed.

Lemma add_all_In xs : forall acc x, In x (add_all xs acc) <-> In x xs \/ In x acc.
Proof.
  induction xs as [|y xs IH]; intros acc x; cbn; [tauto|].
  destruct (memb y acc) eqn:E; rewrite IH.
  - apply memb_In in E. split; [tauto|]. intros [[<-|H]|H]; auto.
  - cbn. tauto.
Qed.

Lemma add_all_NoDup xs : forall acc, NoDup acc -> NoDup (add_all xs acc).
Proof.
  induction xs as [|y xs IH]; intros acc H; cbn; [exact H|].
  destruct (memb y acc) eqn:E; apply IH; [exact H|].
  constructor; [|exact H]. intros Hin. apply memb_In in Hin. congruence.
Qed.

Lemma fold_left_invariant {A B} (P : A -> Prop) (f : A -> B -> A) :
  (forall a b, P a -> P (f a b)) -> forall l a, P a -> P (fold_left f l a).
Proof. intros H. induction l; cbn; auto. Qed.

Lemma expand_In g s x :
  In x (expand g s) <-> In x s \/ exists y, In y s /\ In x (succs g y).
Proof.
  unfold expand.
  assert (G : forall l acc, In x (fold_left (fun a y => add_all (succs g y) a) l acc)
                            <-> In x acc \/ exists y, In y l /\ In x (succs g y)).
  { induction l as [|y l IH]; intros acc; cbn.
    - split; [auto|]. intros [H|(y & [] & _)]. exact H.
    - rewrite IH, add_all_In. split.
      + intros [[H|H]|(z & Hz & Hx)]; [right; exists y; auto | auto | right; exists z; auto].
      + intros [H|(z & [<-|Hz] & Hx)]; [auto | auto | right; exists z; auto]. }
  apply G.
Qed.

Lemma expand_NoDup g s : NoDup s -> NoDup (expand g s).
Proof. apply fold_left_invariant. intros acc y. apply add_all_NoDup. Qed.

Lemma iterate_invariant {A} (P : A -> Prop) (f : A -> A) :
  (forall a, P a -> P (f a)) -> forall k a, P a -> P (iterate k f a).
Proof. intros H. induction k; cbn; auto. Qed.

Lemma iterate_S {A} (f : A -> A) : forall k a, iterate (S k) f a = f (iterate k f a).
Proof. induction k as [|k IH]; intros a; [reflexivity | exact (IH (f a))]. Qed.

Lemma iterate_mono g k s x : In x s -> In x (iterate k (expand g) s).
Proof. apply iterate_invariant. intros t H. apply expand_In. now left. Qed.

Lemma reach_sound g i x : memb x (reach_from g i) = true -> path g i x.
Proof.
  rewrite memb_In. revert x.
  apply (iterate_invariant (fun s => forall x, In x s -> path g i x)).
  - intros s Hs x Hx. apply expand_In in Hx as [Hx|(y & Hy & Hx)]; [now apply Hs|].
    eapply path_snoc; [apply Hs; exact Hy | exact Hx].
  - intros x Hx. apply add_all_In in Hx as [Hx|[]]. now apply path_edge.
Qed.

(* round k has every endpoint of a path of at most k+1 edges; no assumption on g *)
Lemma iterate_complete g i : forall k s,
  (forall x, In x (succs g i) -> In x s) ->
  forall x, path_le g k i x -> In x (iterate k (expand g) s).
Proof.
  intros k s Hs x P. induction P as [n i j H|n i k j _ IH H].
  - apply iterate_mono, Hs, H.
  - rewrite iterate_S. apply expand_In. right. exists k. auto.
Qed.

Lemma reach_complete_bounded g i x :
  path_le g (length g) i x -> memb x (reach_from g i) = true.
Proof.
  intros H. apply memb_In. unfold reach_from. apply (iterate_complete g i); [|exact H].
  intros y Hy. apply add_all_In. now left.
Qed.

Lemma inloop_spec_nth g i :
  i < length g -> nth i (inloop_spec g) false = memb i (reach_from g i).
Proof.
  intros H. unfold inloop_spec.
  rewrite (nth_indep _ false (memb (length g) (reach_from g (length g)))) by (rewrite map_length, seq_length; exact H).
  rewrite (map_nth (fun i => memb i (reach_from g i)) (seq 0 (length g)) (length g) i).
  now rewrite seq_nth.
Qed.

(* Completeness for paths of any length.  A set closed under successors that holds the
   successors of i holds everything i reaches.  The rounds of [reach_from] stay duplicate-free
   and below [length g], and a round that is not yet closed adds a block, so round [length g]
   is closed. *)

Definition wf_cfg (g : cfg) : Prop := forall i x, In x (succs g i) -> x < length g.
Definition closed (g : cfg) (s : list nat) : Prop := forall y x, In y s -> In x (succs g y) -> In x s.

Lemma closed_path g s i x :
  closed g s -> (forall y, In y (succs g i) -> In y s) -> path g i x -> In x s.
Proof.
  intros C Hi P. induction P as [i j H|i k j H _ IH]; [now apply Hi|].
  apply IH. intros y. apply C. now apply Hi.
Qed.

Lemma closed_expand g s : closed g s -> closed g (expand g s).
Proof.
  intros C y x Hy Hx. apply expand_In. right. exists y. split; [|exact Hx].
  apply expand_In in Hy as [Hy|(z & Hz & Hy)]; [exact Hy | eapply C; eauto].
Qed.

Lemma expand_closed_or_grows g s : NoDup s -> closed g s \/ length s < length (expand g s).
Proof.
  intros ND.
  assert (I : incl s (expand g s)) by (intros z Hz; apply expand_In; now left).
  pose proof (NoDup_incl_length ND I) as L.
  destruct (Nat.eq_dec (length (expand g s)) (length s)) as [E|E]; [left | right; lia].
  assert (I' : incl (expand g s) s) by (apply NoDup_length_incl; [exact ND | lia | exact I]).
  intros y x Hy Hx. apply I', expand_In. right. exists y. auto.
Qed.

Lemma bounded_NoDup_length (n : nat) (s : list nat) :
  NoDup s -> (forall x, In x s -> x < n) -> length s <= n.
Proof.
  intros ND H. rewrite <- (seq_length n 0). apply NoDup_incl_length; [exact ND|].
  intros x Hx. apply in_seq. specialize (H x Hx). lia.
Qed.

Lemma iterate_closed g s :
  wf_cfg g -> NoDup s -> (forall x, In x s -> x < length g) ->
  closed g (iterate (length g) (expand g) s).
Proof.
  intros W ND B.
  assert (I : forall k, NoDup (iterate k (expand g) s) /\
                        forall x, In x (iterate k (expand g) s) -> x < length g).
  { intros k. apply (iterate_invariant (fun t => NoDup t /\ forall x, In x t -> x < length g)); [|auto].
    intros t [NDt Bt]. split; [now apply expand_NoDup|].
    intros x Hx. apply expand_In in Hx as [Hx|(y & _ & Hx)]; [now apply Bt | eapply W; eauto]. }
  assert (G : forall k, closed g (iterate k (expand g) s) \/ k < length (iterate k (expand g) s)).
  { induction k as [|k IH].
    - destruct s; [left; intros y x [] | right; cbn; lia].
    - rewrite iterate_S.
      destruct IH as [C|L]; [left; now apply closed_expand|].
      destruct (expand_closed_or_grows g _ (proj1 (I k))) as [C|L'];
        [left; now apply closed_expand | right; lia]. }
  destruct (G (length g)) as [C|L]; [exact C|].
  destruct (I (length g)) as [NDk Bk]. pose proof (bounded_NoDup_length _ _ NDk Bk). lia.
Qed.

Lemma reach_complete g i x : wf_cfg g -> path g i x -> memb x (reach_from g i) = true.
Proof.
  intros W. rewrite memb_In. apply closed_path.
  - apply iterate_closed; [exact W | apply add_all_NoDup; constructor |].
    intros y Hy. apply add_all_In in Hy as [Hy|[]]. eapply W; eauto.
  - intros y Hy. apply iterate_mono, add_all_In. now left.
Qed.

Theorem reach_from_path g i x : wf_cfg g -> (memb x (reach_from g i) = true <-> path g i x).
Proof. intros W. split; [apply reach_sound | now apply reach_complete]. Qed.
