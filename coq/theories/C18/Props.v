(* C18 - property theorems only.  Model: C18.Model (internal/targets loader.go,
   config.go as they are).  resolve true = Loader.Load as it is now (with the
   chain of descriptions being resolved, fix: report inheritance cycles);
   resolve false = the loader before that fix, kept for the refutation at the
   end. *)
From LLGoV Require Import C18.Model C18.Proofs.
From Coq Require Import Permutation.
Local Open Scope string_scope.
Local Open Scope list_scope.

(* Any description whose inheritance is acyclic and complete (Lin d n l holds
   exactly then, with l = concat (map lin parents) ++ [n]) resolves, for every
   fuel above the length of l, to the fold of the raw descriptions along l. *)
Theorem resolve_eq_linearised : forall d n l fuel,
  Lin d n l -> (fuel > List.length l)%nat -> resolve true fuel d n = Ok n (fold_spec d l).
Proof. exact (resolve_linearised true). Qed.
Print Assumptions resolve_eq_linearised.

Theorem lin_function_sound : forall d fuel n l, lin fuel d n = Some l -> Lin d n l.
Proof. exact lin_Lin. Qed.
Print Assumptions lin_function_sound.

(* ... in which every list setting is the concatenation of the lists along the
   linearisation (ancestors in inheritance order, own list last), *)
Theorem list_setting_is_concatenation : forall d l k, In (k, KList) table ->
  get (fold_spec d l) k KList
  = VList (List.concat (map (fun n => list_of (get (raw_cfg d n) k KList)) l)).
Proof.
  intros d l k He. rewrite (get_fold_spec d l k KList He). cbn [zero].
  rewrite fold_mv_list by apply gets_kind. now rewrite map_map.
Qed.
Print Assumptions list_setting_is_concatenation.

(* every string setting is the value of the nearest description (last in the
   linearisation) that defines it, i.e. gives a non-empty value, *)
Theorem scalar_setting_is_nearest_definition : forall d l k, In (k, KStr) table ->
  get (fold_spec d l) k KStr
  = VStr (nearest (map (fun n => str_of (get (raw_cfg d n) k KStr)) l)).
Proof.
  intros d l k He. rewrite (get_fold_spec d l k KStr He). cbn [zero].
  rewrite fold_mv_str by apply gets_kind. now rewrite map_map.
Qed.
Print Assumptions scalar_setting_is_nearest_definition.

(* and the boolean setting is true exactly when some description of the
   linearisation sets it (mergeConfig can switch it on, never off). *)
Theorem bool_setting_is_any_definition : forall d l k, In (k, KBool) table ->
  get (fold_spec d l) k KBool
  = VBool (existsb (fun n => bool_of (get (raw_cfg d n) k KBool)) l).
Proof.
  intros d l k He. rewrite (get_fold_spec d l k KBool He). cbn [zero].
  rewrite fold_mv_bool by apply gets_kind. cbn [orb]. f_equal.
  induction l as [|n l IH]; cbn; [reflexivity | now rewrite IH].
Qed.
Print Assumptions bool_setting_is_any_definition.

(* more fuel never changes an answer *)
Theorem resolve_fuel_monotone : forall d n fuel fuel',
  (fuel <= fuel')%nat -> resolve true fuel d n <> OutOfFuel -> resolve true fuel' d n = resolve true fuel d n.
Proof. exact (resolve_mono true). Qed.
Print Assumptions resolve_fuel_monotone.

(* the answer does not depend on the order in which the descriptions are
   stored or enumerated *)
Theorem resolve_order_independent : forall d d' fuel n,
  Permutation d d' -> NoDup (map fst d) -> resolve true fuel d n = resolve true fuel d' n.
Proof. exact (resolve_perm true). Qed.
Print Assumptions resolve_order_independent.

(* A Loader that serves a sequence of requests answers each of them as a fresh
   Loader would: whatever it has cached (as long as the cache holds only what the
   directory holds - in particular never an entry for a missing description),
   the answers are a function of the directory and the requested name alone. *)
Theorem load_is_history_independent : forall fuel d upd cache ops,
  (forall c n, consistent c d -> consistent (upd c n) d) -> consistent cache d ->
  run_ops fuel d upd cache ops = map (resolve true fuel d) ops.
Proof. intros fuel d upd cache ops Hupd Hc. exact (run_ops_pure fuel d upd Hupd ops cache Hc). Qed.
Print Assumptions load_is_history_independent.

Example history_independent_instance : forall fuel d ops,
  run_ops fuel d (cache_requested d) [] ops = map (resolve true fuel d) ops.
Proof.
  intros. apply load_is_history_independent; [apply cache_requested_consistent | intros n r H; discriminate].
Qed.

(* a successful resolution implies an acyclic, complete inheritance below n *)
Theorem ok_only_if_acyclic_and_complete : forall d fuel n n' c,
  resolve true fuel d n = Ok n' c -> n' = n /\ (exists l, Lin d n l) /\ ~ Anc d n n.
Proof.
  intros d fuel n n' c E. destruct (resolve_ok_fold true fuel d n n' c E) as [Hn [l [HL _]]].
  split; [exact Hn|]. split; [now exists l | exact (Lin_acyclic _ _ _ HL)].
Qed.
Print Assumptions ok_only_if_acyclic_and_complete.

(* an error names a description reached from n that does not exist, or one
   that lies on an inheritance cycle *)
Theorem error_names_missing_ancestor : forall d fuel n m,
  resolve true fuel d n = ErrMissing m -> lookup d m = None /\ (m = n \/ Anc d n m).
Proof. intros d fuel n m E. pose proof (resolve_sound true fuel d n) as H. rewrite E in H. exact H. Qed.
Print Assumptions error_names_missing_ancestor.

Theorem error_names_cyclic_ancestor : forall d fuel n m,
  resolve true fuel d n = ErrCycle m -> Anc d m m /\ (m = n \/ Anc d n m).
Proof. intros d fuel n m E. pose proof (resolve_sound true fuel d n) as H. rewrite E in H. apply H. Qed.
Print Assumptions error_names_cyclic_ancestor.

(* Resolution ALWAYS ends - for every description set, cyclic or not - as soon
   as the fuel exceeds the number of descriptions: never a hang, never a crash. *)
Theorem resolution_always_terminates : forall d fuel n,
  (fuel > List.length d)%nat -> resolve true fuel d n <> OutOfFuel.
Proof. exact resolve_fixed_terminates. Qed.
Print Assumptions resolution_always_terminates.

(* a missing parent (anywhere below n) ends with an error *)
Theorem missing_parent_is_an_error : forall d n m fuel,
  (m = n \/ Anc d n m) -> lookup d m = None -> (fuel > List.length d)%nat ->
  exists e, resolve true fuel d n = e /\
    ((exists m', e = ErrMissing m' /\ lookup d m' = None) \/ (exists m', e = ErrCycle m' /\ Anc d m' m')).
Proof.
  intros d n m fuel Hm Hn Hf. eexists. split; [reflexivity|].
  destruct (resolve_fixed_error d n fuel Hf (missing_no_Lin d n m Hm Hn)) as [[m' [-> H]] | [m' [-> H]]]; eauto.
Qed.
Print Assumptions missing_parent_is_an_error.

(* a cyclic request ends with an error: a cycle error naming a description on a
   cycle, or - when a missing description is met first - a missing-file error *)
Theorem cyclic_request_is_an_error : forall d n fuel,
  Anc d n n -> (fuel > List.length d)%nat ->
  (exists m, resolve true fuel d n = ErrCycle m /\ Anc d m m) \/
  (exists m, resolve true fuel d n = ErrMissing m /\ lookup d m = None).
Proof. intros d n fuel HA Hf. exact (resolve_fixed_error d n fuel Hf (cyclic_no_Lin d n HA)). Qed.
Print Assumptions cyclic_request_is_an_error.

Example cycle_witnesses_now_errors :
  resolve true 3 db_self name_a = ErrCycle name_a /\ resolve true 3 db_two name_a = ErrCycle name_a.
Proof. split; vm_compute; reflexivity. Qed.

(* Before the fix (finding F12, repaired): on a cyclic request whose
   descriptions all exist the recursion did not end, whatever the fuel - in Go
   the goroutine stack overflowed. *)
Theorem unfixed_cyclic_complete_request_never_ends : forall d n,
  Anc d n n -> (forall m, Anc d n m -> lookup d m <> None) ->
  forall fuel, resolve false fuel d n = OutOfFuel.
Proof. exact cyclic_closed_loops. Qed.
Print Assumptions unfixed_cyclic_complete_request_never_ends.

Theorem unfixed_cycle_refuted :
  (forall fuel, resolve false fuel db_self name_a = OutOfFuel) /\
  (forall fuel, resolve false fuel db_two name_a = OutOfFuel).
Proof. split; [exact self_cycle_loops | exact two_cycle_loops]. Qed.
Print Assumptions unfixed_cycle_refuted.

(* An example, a diamond.  ex_lin and ex_resolve show by evaluation what the
   theorems above say of it; ex_ranked shows that [ranked], the hypothesis under
   which C18.Proofs.missing_errors speaks of the loader before the fix, can be met. *)
Definition ex_db : db := [
  (bs "base", Raw [] [("cpu", VStr (bs "m0")); ("cflags", VList [bs "-b"]); ("goos", VStr (bs "linux"))]);
  (bs "l", Raw [bs "base"] [("cpu", VStr (bs "m4")); ("cflags", VList [bs "-l"])]);
  (bs "r", Raw [bs "base"] [("cflags", VList [bs "-r"]); ("rp2040-boot-patch", VBool true)]);
  (bs "top", Raw [bs "l"; bs "r"] [("cflags", VList [bs "-t"]); ("cpu", VStr [])])].

Example ex_lin : lin 5 ex_db (bs "top") = Some [bs "base"; bs "l"; bs "base"; bs "r"; bs "top"].
Proof. vm_compute. reflexivity. Qed.

Example ex_resolve :
  match resolve true 6 ex_db (bs "top") with
  | Ok _ c => get c "cpu" KStr = VStr (bs "m0")   (* base again through r, after l: the last definition in lin wins *)
              /\ get c "cflags" KList = VList [bs "-b"; bs "-l"; bs "-b"; bs "-r"; bs "-t"]
              /\ get c "goos" KStr = VStr (bs "linux")
              /\ get c "rp2040-boot-patch" KBool = VBool true
  | _ => False
  end.
Proof. vm_compute. repeat split; reflexivity. Qed.

Example ex_ranked : ranked ex_db (fun n => if str_eqb n (bs "top") then 2 else if str_eqb n (bs "base") then 0 else 1)%nat.
Proof.
  intros n r p Hlk Hp. apply lookup_in in Hlk.
  destruct Hlk as [E | [E | [E | [E | []]]]]; injection E as <- <-; cbn [inherits] in Hp.
  - destruct Hp.
  - destruct Hp as [<- | []]. vm_compute. lia.
  - destruct Hp as [<- | []]. vm_compute. lia.
  - destruct Hp as [<- | [<- | []]]; vm_compute; lia.
Qed.
