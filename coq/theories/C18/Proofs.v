(* C18 - the two loaders of internal/targets (before and after the cycle fix) are
   reasoned about through one function, loadc; the lemmas about Resolver.Resolve and
   Loader.Load (those named resolve_... and load_...) are its instances. *)
From LLGoV Require Import C18.Model.
From Coq Require Import Permutation.
Local Open Scope string_scope.
Local Open Scope list_scope.

Definition has_kind (kd : kind) (v : value) : Prop :=
  match kd, v with
  | KStr, VStr _ | KBool, VBool _ | KList, VList _ => True
  | _, _ => False
  end.

Lemma zero_kind kd : has_kind kd (zero kd).
Proof. destruct kd; exact I. Qed.

Lemma coerce_kind kd v : has_kind kd (coerce kd v).
Proof. destruct kd, v; exact I. Qed.

Lemma coerce_id kd v : has_kind kd v -> coerce kd v = v.
Proof. destruct kd, v; cbn; intuition. Qed.

Lemma get_kind c k kd : has_kind kd (get c k kd).
Proof. unfold get. destruct (assoc c k); [apply coerce_kind | apply zero_kind]. Qed.

Lemma mv_kind kd a b : has_kind kd (mv kd a b).
Proof. destruct kd, a, b; exact I. Qed.

Lemma has_kind_inv kd v : has_kind kd v ->
  match kd with
  | KStr => exists s, v = VStr s
  | KBool => exists b, v = VBool b
  | KList => exists l, v = VList l
  end.
Proof. destruct kd, v; cbn; intros H; (contradiction || eauto). Qed.

Lemma mv_assoc kd x y z : has_kind kd x -> has_kind kd y -> has_kind kd z ->
  mv kd (mv kd x y) z = mv kd x (mv kd y z).
Proof.
  intros Hx Hy Hz.
  destruct kd; destruct (has_kind_inv _ _ Hx) as [a ->], (has_kind_inv _ _ Hy) as [b ->],
    (has_kind_inv _ _ Hz) as [c ->]; cbn.
  - destruct c, b; reflexivity.
  - destruct c, b; reflexivity.
  - destruct c, b; cbn; rewrite ?app_nil_r, <- ?app_assoc; reflexivity.
Qed.

Lemma mv_zero_l kd v : has_kind kd v -> mv kd (zero kd) v = v.
Proof.
  intros Hv. destruct kd; destruct (has_kind_inv _ _ Hv) as [a ->]; cbn.
  - now destruct a.
  - now destruct a.
  - now destruct a.
Qed.

Lemma mv_zero_r kd v : has_kind kd v -> mv kd v (zero kd) = v.
Proof. destruct kd, v; cbn; tauto. Qed.

Definition first_entry (k : string) := find (fun e : string * kind => String.eqb k (fst e)) table.

Lemma kind_eqb_eq a b : kind_eqb a b = true -> a = b.
Proof. destruct a, b; (reflexivity || discriminate). Qed.

Lemma table_first : forall e, In e table -> first_entry (fst e) = Some e.
Proof.
  assert (H : forallb (fun e => match first_entry (fst e) with
                                | Some e' => String.eqb (fst e) (fst e') && kind_eqb (snd e) (snd e')
                                | None => false end) table = true) by (vm_compute; reflexivity).
  intros e He. rewrite forallb_forall in H. specialize (H e He).
  destruct (first_entry (fst e)) as [e'|]; [|discriminate].
  apply andb_true_iff in H as [H1 H2]. apply String.eqb_eq in H1. apply kind_eqb_eq in H2.
  now rewrite (injective_projections e e' H1 H2).
Qed.

Lemma assoc_map (F : string * kind -> value) (T : list (string * kind)) k :
  assoc (map (fun e => (fst e, F e)) T) k =
  match find (fun e => String.eqb k (fst e)) T with Some e => Some (F e) | None => None end.
Proof.
  induction T as [|e T IH]; cbn; [reflexivity|].
  destruct (String.eqb k (fst e)); [reflexivity | exact IH].
Qed.

Lemma get_map F e : In e table ->
  get (map (fun e => (fst e, F e)) table) (fst e) (snd e) = coerce (snd e) (F e).
Proof.
  intros He. unfold get. rewrite assoc_map. fold (first_entry (fst e)).
  now rewrite (table_first e He).
Qed.

Lemma get_merge a b e : In e table ->
  get (merge a b) (fst e) (snd e) = mv (snd e) (get a (fst e) (snd e)) (get b (fst e) (snd e)).
Proof.
  intros He. unfold merge. rewrite (get_map _ e He). apply coerce_id, mv_kind.
Qed.

Lemma get_norm c e : In e table -> get (norm c) (fst e) (snd e) = get c (fst e) (snd e).
Proof.
  intros He. unfold norm. rewrite (get_map _ e He). apply coerce_id, get_kind.
Qed.

Lemma get_empty k kd : get empty_cfg k kd = zero kd.
Proof.
  unfold empty_cfg, norm, get. rewrite assoc_map.
  destruct (find _ table) as [e|]; [|reflexivity].
  cbn. destruct kd, (snd e); reflexivity.
Qed.

Lemma merge_assoc a b c : merge (merge a b) c = merge a (merge b c).
Proof.
  unfold merge at 1 3. apply map_ext_in. intros e He. f_equal.
  rewrite !(get_merge _ _ e He). apply mv_assoc; apply get_kind.
Qed.

Lemma merge_empty_l c : merge empty_cfg c = norm c.
Proof.
  unfold merge, norm. apply map_ext_in. intros e He. f_equal.
  rewrite get_empty. apply mv_zero_l, get_kind.
Qed.

Lemma merge_empty_r c : merge c empty_cfg = norm c.
Proof.
  unfold merge, norm. apply map_ext_in. intros e He. f_equal.
  rewrite get_empty. apply mv_zero_r, get_kind.
Qed.

Lemma merge_norm_l a b : merge (norm a) b = merge a b.
Proof.
  unfold merge. apply map_ext_in. intros e He. f_equal. now rewrite (get_norm _ e He).
Qed.

Lemma merge_norm_r a b : merge a (norm b) = merge a b.
Proof.
  unfold merge. apply map_ext_in. intros e He. f_equal. now rewrite (get_norm _ e He).
Qed.

Lemma fold_spec_snoc d l n : fold_spec d (l ++ [n]) = merge (fold_spec d l) (raw_cfg d n).
Proof. unfold fold_spec. now rewrite map_app, fold_left_app. Qed.

Lemma merge_fold_spec d l acc : l <> [] ->
  merge acc (fold_spec d l) = fold_left merge (map (raw_cfg d) l) acc.
Proof.
  induction l as [|n l IH] using rev_ind; [congruence|]. intros _.
  rewrite fold_spec_snoc, <- merge_assoc, map_app, fold_left_app. cbn [map fold_left].
  destruct l as [|m l].
  - unfold fold_spec. cbn [map fold_left]. now rewrite merge_empty_r, merge_norm_l.
  - now rewrite IH.
Qed.

Lemma get_fold cs e : In e table -> forall acc,
  get (fold_left merge cs acc) (fst e) (snd e) =
  fold_left (mv (snd e)) (map (fun c => get c (fst e) (snd e)) cs) (get acc (fst e) (snd e)).
Proof.
  intros He. induction cs as [|c cs IH]; intros acc; cbn [fold_left map]; [reflexivity|].
  rewrite IH. rewrite (get_merge _ _ e He). reflexivity.
Qed.

Lemma get_fold_spec d l k kd : In (k, kd) table ->
  get (fold_spec d l) k kd = fold_left (mv kd) (map (fun n => get (raw_cfg d n) k kd) l) (zero kd).
Proof.
  intros He. pose proof (get_fold (map (raw_cfg d) l) (k, kd) He empty_cfg) as H.
  cbn [fst snd] in H. unfold fold_spec. now rewrite H, get_empty, map_map.
Qed.

Lemma gets_kind {A} (f : A -> cfg) k kd l : Forall (has_kind kd) (map (fun x => get (f x) k kd) l).
Proof. apply Forall_forall. intros v Hv. apply in_map_iff in Hv as [c [<- _]]. apply get_kind. Qed.

Definition str_of (v : value) : str := match v with VStr s => s | _ => [] end.
Definition bool_of (v : value) : bool := match v with VBool b => b | _ => false end.
Definition list_of (v : value) : list str := match v with VList l => l | _ => [] end.

(* the value of the nearest (= last in the linearisation) description that
   defines the setting; empty when none does *)
Definition nearest (vs : list str) : str :=
  match find nonempty (rev vs) with Some v => v | None => [] end.

Lemma nearest_snoc vs v : nearest (vs ++ [v]) = if nonempty v then v else nearest vs.
Proof. unfold nearest. rewrite rev_app_distr. cbn. now destruct (nonempty v). Qed.

Lemma fold_mv_list vs : forall a,
  Forall (has_kind KList) vs ->
  fold_left (mv KList) vs (VList a) = VList (a ++ List.concat (map list_of vs)).
Proof.
  induction vs as [|v vs IH]; intros a Hk; cbn; [now rewrite app_nil_r|].
  inversion Hk as [|? ? Hv Hvs]; subst. destruct v; cbn in Hv; try tauto.
  cbn [mv]. replace (if nonempty l then a ++ l else a) with (a ++ l)
    by (destruct l; cbn; now rewrite ?app_nil_r).
  rewrite (IH _ Hvs). cbn. now rewrite app_assoc.
Qed.

Lemma fold_mv_str vs : forall a,
  Forall (has_kind KStr) vs ->
  fold_left (mv KStr) vs (VStr a) =
  VStr (match find nonempty (rev (map str_of vs)) with Some v => v | None => a end).
Proof.
  induction vs as [|v vs IH] using rev_ind; intros a Hk; cbn; [reflexivity|].
  apply Forall_app in Hk as [Hvs Hv]. inversion Hv as [|? ? Hv' _]; subst.
  destruct v; cbn in Hv'; try tauto.
  rewrite fold_left_app. cbn [fold_left]. rewrite (IH a Hvs).
  rewrite map_app, rev_app_distr. cbn. destruct s; reflexivity.
Qed.

Lemma fold_mv_bool vs : forall a,
  Forall (has_kind KBool) vs ->
  fold_left (mv KBool) vs (VBool a) = VBool (a || existsb bool_of vs).
Proof.
  induction vs as [|v vs IH]; intros a Hk; cbn; [now rewrite orb_false_r|].
  inversion Hk as [|? ? Hv Hvs]; subst. destruct v; cbn in Hv; try tauto.
  cbn [mv]. rewrite (IH _ Hvs). cbn. destruct b, a; reflexivity.
Qed.

Lemma lookup_in d n r : lookup d n = Some r -> In (n, r) d.
Proof.
  induction d as [|[m r'] d IH]; cbn; [discriminate|].
  destruct (str_eqb n m) eqn:E; [|now right; apply IH].
  apply str_eqb_eq in E. intros H; inversion H; subst. now left.
Qed.

Lemma lookup_notin d n : ~ In n (map fst d) -> lookup d n = None.
Proof.
  intros H. destruct (lookup d n) as [r|] eqn:E; [|reflexivity].
  exfalso. apply H. exact (in_map fst _ _ (lookup_in _ _ _ E)).
Qed.

Lemma lookup_app a b n : lookup (a ++ b) n = match lookup a n with Some r => Some r | None => lookup b n end.
Proof.
  induction a as [|[m r] a IH]; cbn; [reflexivity|]. destruct (str_eqb n m); [reflexivity | exact IH].
Qed.

Lemma lookup_perm d d' : Permutation d d' -> NoDup (map fst d) ->
  forall n, lookup d n = lookup d' n.
Proof.
  induction 1 as [| [m r] d d' HP IH | [m1 r1] [m2 r2] d | d1 d2 d3 H1 IH1 H2 IH2]; intros ND n.
  - reflexivity.
  - cbn. inversion ND; subst. destruct (str_eqb n m); auto.
  - cbn. destruct (str_eqb n m2) eqn:E2, (str_eqb n m1) eqn:E1; try reflexivity.
    apply str_eqb_eq in E1, E2. subst. cbn in ND. inversion ND as [|? ? Hn _]; subst.
    exfalso. apply Hn. now left.
  - rewrite IH1 by exact ND. apply IH2.
    eapply Permutation_NoDup; [|exact ND]. now apply Permutation_map.
Qed.

Lemma visited_In vis n : visited vis n = true <-> In n vis.
Proof. apply existsb_eqb_In, str_eqb_iff. Qed.

Lemma Anc_through_parent d n r p m : lookup d n = Some r -> In p (inherits r) -> m = p \/ Anc d p m -> Anc d n m.
Proof.
  intros Hlk Hp Hm. assert (Hs : Anc d n p) by now apply Anc_step with r.
  destruct Hm as [-> | Hm]; [exact Hs | now apply Anc_trans with p].
Qed.

Scheme Lin_ind2 := Induction for Lin Sort Prop
  with Lins_ind2 := Induction for Lins Sort Prop.
Combined Scheme Lin_Lins_ind from Lin_ind2, Lins_ind2.

Lemma Lin_nonempty d n l : Lin d n l -> l <> [].
Proof. intros H; inversion H; subst. destruct l0; discriminate. Qed.

Lemma Lin_lookup d n l : Lin d n l -> lookup d n <> None.
Proof. intros H; inversion H; subst. congruence. Qed.

Lemma lin_Lin d : forall fuel n l, lin fuel d n = Some l -> Lin d n l.
Proof.
  induction fuel as [|f IH]; intros n l; cbn; [discriminate|].
  destruct (lookup d n) as [r|] eqn:Hlk; [|discriminate].
  destruct (lin_parents (lin f d) (inherits r)) as [lp|] eqn:Ep; [|discriminate].
  intros E; inversion E; subst; clear E.
  apply Lin_node with r; [exact Hlk|].
  revert lp Ep. induction (inherits r) as [|p ps IHp]; intros lp; cbn.
  - intros E; inversion E. constructor.
  - destruct (lin f d p) as [a|] eqn:Ea; [|discriminate].
    destruct (lin_parents (lin f d) ps) as [b|] eqn:Eb; [|discriminate].
    intros E; inversion E; subst. constructor; auto.
Qed.

Lemma Lins_exists d ps : (forall p, In p ps -> exists l, Lin d p l) -> exists l, Lins d ps l.
Proof.
  induction ps as [|p ps IH]; intros H; [exists []; constructor|].
  destruct (H p (or_introl eq_refl)) as [l1 H1].
  destruct IH as [l2 H2]; [intros q Hq; apply H; now right|].
  exists (l1 ++ l2). now constructor.
Qed.

Lemma Lins_in d ps l : Lins d ps l -> forall p, In p ps -> exists l', Lin d p l' /\ (List.length l' <= List.length l)%nat.
Proof.
  induction 1 as [|p ps l1 l2 H1 H2 IH]; intros q; [intros []|].
  intros [<- | Hq].
  - exists l1. split; [exact H1 | rewrite app_length; lia].
  - destruct (IH q Hq) as [l' [Hl Hlen]]. exists l'. split; [exact Hl | rewrite app_length; lia].
Qed.

Lemma Lin_anc d : forall n p, Anc d n p -> forall l, Lin d n l ->
  exists l', Lin d p l' /\ (List.length l' < List.length l)%nat.
Proof.
  induction 1 as [n r p Hlk Hp | n m p _ IH1 _ IH2]; intros l HL.
  - inversion HL as [n0 r0 l0 Hlk0 HLs]; subst. rewrite Hlk in Hlk0. inversion Hlk0; subst.
    destruct (Lins_in _ _ _ HLs p Hp) as [l' [Hl Hlen]].
    exists l'. split; [exact Hl | rewrite app_length; cbn; lia].
  - destruct (IH1 l HL) as [l1 [H1 Hlen1]]. destruct (IH2 l1 H1) as [l2 [H2 Hlen2]].
    exists l2. split; [exact H2 | lia].
Qed.

Lemma Lin_acyclic d n l : Lin d n l -> ~ Anc d n n.
Proof.
  remember (List.length l) as k eqn:Ek. revert n l Ek.
  induction k as [k IH] using lt_wf_ind. intros n l -> HL HA.
  destruct (Lin_anc d n n HA l HL) as [l' [HL' Hlen]].
  exact (IH (List.length l') Hlen n l' eq_refl HL' HA).
Qed.

Lemma Lin_anc_exists d n l m : Lin d n l -> Anc d n m -> lookup d m <> None.
Proof.
  intros HL HA. destruct (Lin_anc d n m HA l HL) as [l' [HL' _]]. exact (Lin_lookup _ _ _ HL').
Qed.

Lemma Lin_members d :
  (forall n l, Lin d n l -> forall x, In x l -> x = n \/ Anc d n x) /\
  (forall ps l, Lins d ps l -> forall x, In x l -> exists p, In p ps /\ (x = p \/ Anc d p x)).
Proof.
  apply Lin_Lins_ind.
  - intros n r l Hlk HL IH x Hx. apply in_app_or in Hx as [Hx | [<- | []]]; [|now left].
    right. destruct (IH x Hx) as [p [Hp Hr]]. exact (Anc_through_parent _ _ _ _ _ Hlk Hp Hr).
  - intros x [].
  - intros p ps l1 l2 H1 IH1 H2 IH2 x Hx. apply in_app_or in Hx as [Hx | Hx].
    + exists p. split; [now left | now apply IH1].
    + destruct (IH2 x Hx) as [q [Hq Hr]]. exists q. split; [now right | exact Hr].
Qed.

Lemma Lins_not_self d n r l : lookup d n = Some r -> Lins d (inherits r) l -> ~ In n l.
Proof.
  intros Hlk HL Hin. apply (Lin_acyclic d n (l ++ [n]) (Lin_node d n r l Hlk HL)).
  destruct (Lin_members d) as [_ HLs]. destruct (HLs _ _ HL n Hin) as [p [Hp Hr]].
  exact (Anc_through_parent _ _ _ _ _ Hlk Hp Hr).
Qed.

Lemma merge_parents_ext (ld ld' : str -> res) : (forall p, ld p = ld' p) ->
  forall ps acc, merge_parents ld ps acc = merge_parents ld' ps acc.
Proof.
  intros H. induction ps as [|p ps IH]; intros acc; cbn [merge_parents]; [reflexivity|].
  rewrite H. destruct (ld' p); auto.
Qed.

Lemma merge_parents_mono (ld ld' : str -> res) :
  (forall p, ld p <> OutOfFuel -> ld' p = ld p) ->
  forall ps acc, merge_parents ld ps acc <> inl OutOfFuel ->
                 merge_parents ld' ps acc = merge_parents ld ps acc.
Proof.
  intros H. induction ps as [|p ps IH]; intros acc; cbn [merge_parents]; [reflexivity|].
  specialize (H p). destruct (ld p); intros Hne; try congruence; rewrite H by discriminate; auto.
Qed.

Lemma merge_parents_inv (ld : str -> res) ps : forall acc,
  match merge_parents ld ps acc with
  | inl e => (forall n c, e <> Ok n c) /\ exists p, In p ps /\ ld p = e
  | inr _ => forall p, In p ps -> exists n c, ld p = Ok n c
  end.
Proof.
  induction ps as [|p ps IH]; intros acc; cbn [merge_parents]; [intros p []|].
  assert (Hp : exists q, In q (p :: ps) /\ ld q = ld p) by (exists p; split; [now left | reflexivity]).
  destruct (ld p) as [n c| m | m |] eqn:E.
  - specialize (IH (merge acc c)). destruct (merge_parents ld ps (merge acc c)) as [e|].
    + destruct IH as [He [q [Hq Hl]]]. split; [exact He|]. exists q. split; [now right | exact Hl].
    + intros q [<- | Hq]; eauto.
  - split; [discriminate | exact Hp].
  - split; [discriminate | exact Hp].
  - split; [discriminate | exact Hp].
Qed.

(* chk = whether the chain vis of descriptions being resolved is consulted; with
   chk = false it is still threaded but never read (load_loadc holds for every
   vis).  A description without parents needs no case of its own: the loop over
   no parents leaves empty_cfg, and merging into that normalises. *)
Fixpoint loadc (chk : bool) (fuel : nat) (d : db) (vis : list str) (n : str) : res :=
  match fuel with
  | O => OutOfFuel
  | S f =>
    if chk && visited vis n then ErrCycle n
    else
    match lookup d n with
    | None => ErrMissing n
    | Some r =>
      match merge_parents (loadc chk f d (n :: vis)) (inherits r) empty_cfg with
      | inl e => e
      | inr acc => Ok n (merge acc (fields r))
      end
    end
  end.

Lemma loadv_loadc d : forall fuel vis n, loadv fuel d vis n = loadc true fuel d vis n.
Proof.
  induction fuel as [|f IH]; intros vis n; cbn [loadv loadc andb]; [reflexivity|].
  destruct (visited vis n); [reflexivity|].
  destruct (lookup d n) as [r|]; [|reflexivity].
  destruct (inherits r) as [|p ps].
  - cbn [merge_parents]. now rewrite merge_empty_l.
  - now rewrite (merge_parents_ext _ _ (IH (n :: vis))).
Qed.

Lemma load_loadc d : forall fuel vis n, load fuel d n = loadc false fuel d vis n.
Proof.
  induction fuel as [|f IH]; intros vis n; cbn [load loadc andb]; [reflexivity|].
  destruct (lookup d n) as [r|]; [|reflexivity].
  destruct (inherits r) as [|p ps].
  - cbn [merge_parents]. now rewrite merge_empty_l.
  - now rewrite (merge_parents_ext _ _ (IH (n :: vis))).
Qed.

Lemma resolve_loadc fixed fuel d n : resolve fixed fuel d n = loadc fixed fuel d [] n.
Proof. destruct fixed; [apply loadv_loadc | apply load_loadc]. Qed.

Lemma loadc_lin chk d :
  (forall n l, Lin d n l -> forall fuel vis, (fuel > List.length l)%nat ->
      (forall v, In v vis -> ~ In v l) ->
      loadc chk fuel d vis n = Ok n (fold_spec d l)) /\
  (forall ps l, Lins d ps l -> forall fuel vis, (fuel > List.length l)%nat ->
      (forall v, In v vis -> ~ In v l) -> forall acc,
      merge_parents (loadc chk fuel d vis) ps acc = inr (fold_left merge (map (raw_cfg d) l) acc)).
Proof.
  apply Lin_Lins_ind.
  - intros n r l Hlk HL IH fuel vis Hf Hvis.
    destruct fuel as [|f]; [inversion Hf|]. cbn [loadc].
    assert (Hn : visited vis n = false).
    { apply not_true_is_false. intros Hin. apply visited_In in Hin.
      apply (Hvis n Hin), in_or_app. right. now left. }
    rewrite Hn, andb_false_r, Hlk. rewrite app_length in Hf; cbn in Hf.
    rewrite (IH f (n :: vis) ltac:(lia)).
    + rewrite fold_spec_snoc. unfold raw_cfg. now rewrite Hlk.
    + intros v [<- | Hv] Hin; [exact (Lins_not_self _ _ _ _ Hlk HL Hin)|].
      apply (Hvis v Hv), in_or_app. now left.
  - intros fuel vis _ _ acc. reflexivity.
  - intros p ps l1 l2 H1 IH1 H2 IH2 fuel vis Hf Hvis acc.
    rewrite app_length in Hf. cbn [merge_parents].
    rewrite (IH1 fuel vis ltac:(lia)) by (intros v Hv Hin; apply (Hvis v Hv), in_or_app; now left).
    rewrite (IH2 fuel vis ltac:(lia)) by (intros v Hv Hin; apply (Hvis v Hv), in_or_app; now right).
    rewrite map_app, fold_left_app.
    now rewrite (merge_fold_spec d l1 acc (Lin_nonempty _ _ _ H1)).
Qed.

Lemma loadc_mono chk d : forall fuel fuel' vis n, (fuel <= fuel')%nat ->
  loadc chk fuel d vis n <> OutOfFuel -> loadc chk fuel' d vis n = loadc chk fuel d vis n.
Proof.
  induction fuel as [|f IH]; intros fuel' vis n Hle; [cbn; congruence|].
  destruct fuel' as [|f']; [lia|]. cbn [loadc].
  destruct (chk && visited vis n); [reflexivity|].
  destruct (lookup d n) as [r|]; [|reflexivity]. intros Hne.
  rewrite (merge_parents_mono (loadc chk f d (n :: vis)) (loadc chk f' d (n :: vis))).
  - reflexivity.
  - intros p. apply IH. lia.
  - intros E. rewrite E in Hne. congruence.
Qed.

Lemma loadc_ext chk d d' : (forall n, lookup d n = lookup d' n) ->
  forall fuel vis n, loadc chk fuel d vis n = loadc chk fuel d' vis n.
Proof.
  intros H. induction fuel as [|f IH]; intros vis n; cbn [loadc]; [reflexivity|].
  rewrite H. destruct (chk && visited vis n); [reflexivity|].
  destruct (lookup d' n) as [r|]; [|reflexivity].
  now rewrite (merge_parents_ext _ _ (IH (n :: vis))).
Qed.

(* vis is a chain of descriptions that all reach n: a hit in it closes a cycle *)
Lemma loadc_sound chk d : forall fuel vis n, (forall v, In v vis -> Anc d v n) ->
  match loadc chk fuel d vis n with
  | Ok n' _ => n' = n /\ exists l, Lin d n l
  | ErrMissing m => lookup d m = None /\ (m = n \/ Anc d n m)
  | ErrCycle m => chk = true /\ Anc d m m /\ (m = n \/ Anc d n m)
  | OutOfFuel => True
  end.
Proof.
  induction fuel as [|f IH]; intros vis n Hvis; cbn [loadc]; [exact I|].
  destruct (chk && visited vis n) eqn:Ev.
  { apply andb_true_iff in Ev as [Hc Hv]. apply visited_In in Hv. auto. }
  destruct (lookup d n) as [r|] eqn:Hlk; [|auto].
  assert (IHp : forall q, In q (inherits r) -> forall v, In v (n :: vis) -> Anc d v q).
  { intros q Hq v [<- | Hv]; [now apply Anc_step with r|].
    apply Anc_trans with n; [now apply Hvis | now apply Anc_step with r]. }
  pose proof (merge_parents_inv (loadc chk f d (n :: vis)) (inherits r) empty_cfg) as Hmp.
  destruct (merge_parents _ (inherits r) empty_cfg) as [e|acc].
  - (* the error of a parent q, seen from n *)
    destruct Hmp as [Hno [q [Hq <-]]]. specialize (IH (n :: vis) q (IHp q Hq)).
    destruct (loadc chk f d (n :: vis) q) as [n' c| m | m |].
    + now elim (Hno n' c).
    + split; [apply IH | right; exact (Anc_through_parent _ _ _ _ _ Hlk Hq (proj2 IH))].
    + split; [apply IH | split; [apply IH | right; exact (Anc_through_parent _ _ _ _ _ Hlk Hq (proj2 (proj2 IH)))]].
    + exact I.
  - split; [reflexivity|]. destruct (Lins_exists d (inherits r)) as [l HL].
    + intros q Hq. destruct (Hmp q Hq) as [n' [c E]].
      specialize (IH (n :: vis) q (IHp q Hq)). rewrite E in IH. apply IH.
    + exists (l ++ [n]). now apply Lin_node with r.
Qed.

Lemma loadc_fuel chk f d vis n :
  (forall r q, lookup d n = Some r -> In q (inherits r) -> loadc chk f d (n :: vis) q <> OutOfFuel) ->
  loadc chk (S f) d vis n <> OutOfFuel.
Proof.
  intros H. cbn [loadc]. destruct (chk && visited vis n); [discriminate|].
  destruct (lookup d n) as [r|]; [|discriminate].
  pose proof (merge_parents_inv (loadc chk f d (n :: vis)) (inherits r) empty_cfg) as Hmp.
  destruct (merge_parents _ (inherits r) empty_cfg) as [e|acc]; [|discriminate].
  destruct Hmp as [_ [q [Hq <-]]]. now apply (H r).
Qed.

(* acyclic (ranked) description sets: resolution always ends *)
Definition ranked (d : db) (rk : str -> nat) : Prop :=
  forall n r p, lookup d n = Some r -> In p (inherits r) -> (rk p < rk n)%nat.

Lemma ranked_terminates chk d rk : ranked d rk ->
  forall fuel vis n, (fuel > rk n)%nat -> loadc chk fuel d vis n <> OutOfFuel.
Proof.
  intros HR. induction fuel as [|f IH]; intros vis n Hf; [inversion Hf|].
  apply loadc_fuel. intros r q Hlk Hq. apply IH. specialize (HR n r q Hlk Hq). lia.
Qed.

(* with the chain consulted resolution always ends: a chain holds distinct
   names of descriptions, and grows at every step *)
Lemma loadc_terminates d : forall fuel vis n,
  NoDup vis -> incl vis (map fst d) -> (fuel + List.length vis > List.length d)%nat ->
  loadc true fuel d vis n <> OutOfFuel.
Proof.
  induction fuel as [|f IH]; intros vis n ND Hincl Hf.
  - pose proof (NoDup_incl_length ND Hincl) as Hlen. rewrite map_length in Hlen. cbn in Hf. lia.
  - destruct (visited vis n) eqn:Ev; [cbn [loadc andb]; now rewrite Ev|].
    apply loadc_fuel. intros r q Hlk Hq. apply IH.
    + constructor; [|exact ND]. intros Hin. apply visited_In in Hin. congruence.
    + intros x [<- | Hx]; [exact (in_map fst _ _ (lookup_in _ _ _ Hlk)) | now apply Hincl].
    + cbn [List.length]. lia.
Qed.

Lemma resolve_linearised fixed d n l fuel : Lin d n l -> (fuel > List.length l)%nat ->
  resolve fixed fuel d n = Ok n (fold_spec d l).
Proof.
  intros H Hf. rewrite resolve_loadc. apply (proj1 (loadc_lin fixed d) n l H fuel [] Hf). intros v [].
Qed.

Lemma resolve_lin d n l fuel : Lin d n l -> (fuel > List.length l)%nat ->
  resolve false fuel d n = Ok n (fold_spec d l).
Proof. apply resolve_linearised. Qed.

Lemma resolve_mono fixed d n fuel fuel' : (fuel <= fuel')%nat -> resolve fixed fuel d n <> OutOfFuel ->
  resolve fixed fuel' d n = resolve fixed fuel d n.
Proof. rewrite !resolve_loadc. apply loadc_mono. Qed.

Lemma load_mono d n fuel fuel' : (fuel <= fuel')%nat -> load fuel d n <> OutOfFuel ->
  load fuel' d n = load fuel d n.
Proof. exact (resolve_mono false d n fuel fuel'). Qed.

Lemma resolve_ext fixed d d' : (forall n, lookup d n = lookup d' n) ->
  forall fuel n, resolve fixed fuel d n = resolve fixed fuel d' n.
Proof. intros H fuel n. rewrite !resolve_loadc. now apply loadc_ext. Qed.

Lemma resolve_perm fixed d d' fuel n : Permutation d d' -> NoDup (map fst d) ->
  resolve fixed fuel d n = resolve fixed fuel d' n.
Proof. intros HP ND. apply resolve_ext. now apply lookup_perm. Qed.

Lemma load_perm d d' fuel n : Permutation d d' -> NoDup (map fst d) ->
  load fuel d n = load fuel d' n.
Proof. exact (resolve_perm false d d' fuel n). Qed.

Lemma resolve_sound fixed fuel d n :
  match resolve fixed fuel d n with
  | Ok n' _ => n' = n /\ exists l, Lin d n l
  | ErrMissing m => lookup d m = None /\ (m = n \/ Anc d n m)
  | ErrCycle m => fixed = true /\ Anc d m m /\ (m = n \/ Anc d n m)
  | OutOfFuel => True
  end.
Proof. rewrite resolve_loadc. apply loadc_sound. intros v []. Qed.

Lemma resolve_ok_fold fixed fuel d n n' c : resolve fixed fuel d n = Ok n' c ->
  n' = n /\ exists l, Lin d n l /\ c = fold_spec d l.
Proof.
  intros E. pose proof (resolve_sound fixed fuel d n) as H. rewrite E in H. destruct H as [-> [l HL]].
  split; [reflexivity|]. exists l. split; [exact HL|].
  assert (E' := resolve_linearised fixed d n l (fuel + S (List.length l)) HL ltac:(lia)).
  rewrite (resolve_mono fixed d n fuel (fuel + S (List.length l)) ltac:(lia)) in E' by (rewrite E; discriminate).
  rewrite E in E'. now inversion E'.
Qed.

Lemma load_ok_name d : forall fuel n n' c, load fuel d n = Ok n' c -> n' = n.
Proof. intros fuel n n' c E. exact (proj1 (resolve_ok_fold false fuel d n n' c E)). Qed.

Lemma resolve_fixed_terminates d fuel n : (fuel > List.length d)%nat -> resolve true fuel d n <> OutOfFuel.
Proof.
  intros Hf. rewrite resolve_loadc. apply loadc_terminates; [constructor | intros x [] | cbn; lia].
Qed.

Lemma resolve_fixed_error d n fuel : (fuel > List.length d)%nat -> ~ (exists l, Lin d n l) ->
  (exists m, resolve true fuel d n = ErrCycle m /\ Anc d m m) \/
  (exists m, resolve true fuel d n = ErrMissing m /\ lookup d m = None).
Proof.
  intros Hf Hno. pose proof (resolve_fixed_terminates d fuel n Hf) as Ht.
  pose proof (resolve_sound true fuel d n) as Hs.
  destruct (resolve true fuel d n) as [n' c | m | m |].
  - now elim Hno.
  - right. exists m. split; [reflexivity | apply Hs].
  - left. exists m. split; [reflexivity | apply Hs].
  - congruence.
Qed.

Lemma missing_no_Lin d n m : (m = n \/ Anc d n m) -> lookup d m = None -> ~ (exists l, Lin d n l).
Proof.
  intros Hm Hn [l HL]. destruct Hm as [-> | HA].
  - exact (Lin_lookup _ _ _ HL Hn).
  - exact (Lin_anc_exists _ _ _ _ HL HA Hn).
Qed.

Lemma cyclic_no_Lin d n : Anc d n n -> ~ (exists l, Lin d n l).
Proof. intros HA [l HL]. exact (Lin_acyclic _ _ _ HL HA). Qed.

Lemma cyclic_closed_loops d n :
  Anc d n n -> (forall m, Anc d n m -> lookup d m <> None) ->
  forall fuel, load fuel d n = OutOfFuel.
Proof.
  intros HA Hclosed fuel. pose proof (resolve_sound false fuel d n) as Hs. cbn [resolve] in Hs.
  destruct (load fuel d n) as [n' c | m | m |].
  - now elim (cyclic_no_Lin d n HA).
  - destruct Hs as [Hn [-> | Hr]]; [now elim (Hclosed n HA) | now elim (Hclosed m Hr)].
  - destruct Hs as [Hf _]. discriminate Hf.
  - reflexivity.
Qed.

Lemma missing_errors d rk n m fuel : ranked d rk -> (m = n \/ Anc d n m) -> lookup d m = None ->
  (fuel > rk n)%nat -> exists m', load fuel d n = ErrMissing m' /\ lookup d m' = None.
Proof.
  intros HR Hm Hn Hf. pose proof (resolve_sound false fuel d n) as Hs.
  pose proof (ranked_terminates false d rk HR fuel [] n Hf) as Ht.
  rewrite <- resolve_loadc in Ht. cbn [resolve] in Hs, Ht.
  destruct (load fuel d n) as [n' c | m' | m' |].
  - now elim (missing_no_Lin d n m Hm Hn).
  - exists m'. split; [reflexivity | apply Hs].
  - destruct Hs as [Hf' _]. discriminate Hf'.
  - congruence.
Qed.

Definition name_a : str := [97%N].
Definition name_b : str := [98%N].
Definition db_self : db := [(name_a, Raw [name_a] [("cpu", VStr [120%N])])].
Definition db_two : db := [(name_a, Raw [name_b] [("cpu", VStr [120%N])]);
                           (name_b, Raw [name_a] [("cflags", VList [[45%N; 103%N]])])].

Lemma Anc_described d : (forall n r p, In (n, r) d -> In p (inherits r) -> lookup d p <> None) ->
  forall n m, Anc d n m -> lookup d m <> None.
Proof.
  intros H. induction 1 as [n r p Hlk Hp | n m p _ _ _ IH]; [|exact IH].
  exact (H n r p (lookup_in _ _ _ Hlk) Hp).
Qed.

Lemma self_cycle_loops : forall fuel, load fuel db_self name_a = OutOfFuel.
Proof.
  apply cyclic_closed_loops.
  - apply Anc_step with (Raw [name_a] [("cpu", VStr [120%N])]); [reflexivity | now left].
  - apply Anc_described. intros n r p [E | []] Hp; inversion E; subst r.
    destruct Hp as [<- | []]. discriminate.
Qed.

Lemma two_cycle_loops : forall fuel, load fuel db_two name_a = OutOfFuel.
Proof.
  apply cyclic_closed_loops.
  - apply Anc_trans with name_b.
    + apply Anc_step with (Raw [name_b] [("cpu", VStr [120%N])]); [reflexivity | now left].
    + apply Anc_step with (Raw [name_a] [("cflags", VList [[45%N; 103%N]])]); [reflexivity | now left].
  - apply Anc_described. intros n r p [E | [E | []]] Hp; inversion E; subst r.
    + destruct Hp as [<- | []]. discriminate.
    + destruct Hp as [<- | []]. discriminate.
Qed.

Definition consistent (cache d : db) : Prop := forall n r, lookup cache n = Some r -> lookup d n = Some r.

Lemma consistent_lookup cache d : consistent cache d -> forall n, lookup (cache ++ d) n = lookup d n.
Proof.
  intros H n. rewrite lookup_app. destruct (lookup cache n) as [r|] eqn:E; [symmetry; now apply H | reflexivity].
Qed.

Lemma run_ops_pure fuel d upd : (forall c n, consistent c d -> consistent (upd c n) d) ->
  forall ops cache, consistent cache d -> run_ops fuel d upd cache ops = map (resolve true fuel d) ops.
Proof.
  intros Hupd. induction ops as [|n ops IH]; intros cache Hc; cbn [run_ops map]; [reflexivity|].
  rewrite (IH _ (Hupd _ n Hc)). f_equal. apply (resolve_ext true). now apply consistent_lookup.
Qed.

Lemma cache_requested_consistent d c n : consistent c d -> consistent (cache_requested d c n) d.
Proof.
  intros Hc. unfold cache_requested. rewrite (consistent_lookup _ _ Hc).
  destruct (lookup d n) as [r|] eqn:E; [|exact Hc].
  intros m r'. cbn [lookup]. destruct (str_eqb m n) eqn:Em; [|apply Hc].
  apply str_eqb_eq in Em. subst. intros H; inversion H; subst. exact E.
Qed.
