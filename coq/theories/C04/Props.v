(* C04 - property theorems only. *)
From LLGoV Require Import C04.Model C04.Proofs.

(* Deferred calls run exactly once each, in last-in-first-out order and with
   the arguments evaluated at the defer statement: for EVERY shape (any mix of
   unconditional, conditional and loop defer statements, with or without
   arguments) and EVERY run consistent with the compile order, the frame machine
   that ssa/eh.go builds makes exactly the calls Go prescribes.  The premises
   of [consistent] are what cl/blocks must guarantee; each one is necessary
   (refutations below), and the unchanged tree violates three of them on
   reachable programs (known findings). *)
Theorem defers_lifo_exactly_once : forall sh tr,
  consistent sh tr -> machine sh tr = spec sh tr.
Proof. exact machine_eq_spec. Qed.
Print Assumptions defers_lifo_exactly_once.

Theorem premises_satisfiable :
  consistent [S_ Always true; S_ InLoop true; S_ Cond true] [(0, 1%N); (1, 5%N); (1, 6%N); (2, 9%N)]%nat.
Proof. exact consistent_example. Qed.
Print Assumptions premises_satisfiable.

(* the loopDrainerGenerated bookkeeping never changes the calls made *)
Theorem drain_flag_irrelevant : forall sh todo bs st,
  replay_go sh todo bs st false = replay_s sh todo bs st.
Proof. intros. apply replay_go_s. discriminate. Qed.
Print Assumptions drain_flag_irrelevant.

(* the same for the shape the compiler really uses since the repair of finding
   F3 (every unconditional defer statement after the frame-creating one is
   guarded by a bit): the only unconditional statement left is statement 0 *)
Theorem defers_lifo_exactly_once_effective : forall sh tr,
  consistent (effective sh) tr -> machine_eff sh tr = spec sh tr.
Proof. intros sh tr C. unfold machine_eff. rewrite (machine_eq_spec _ _ C). apply spec_effective. Qed.
Print Assumptions defers_lifo_exactly_once_effective.

Theorem effective_unconditional_only_first : forall sh i s,
  nth_error (effective sh) i = Some s -> sk s = Always -> i = 0%nat.
Proof.
  intros sh i s. rewrite nth_effective. destruct (nth_error sh i) as [t|]; cbn; [|discriminate].
  destruct i; [reflexivity|]. intros E K. inversion E; subst. unfold guard_stmt in K.
  destruct (sk t) eqn:E2; cbn in K; congruence.
Qed.
Print Assumptions effective_unconditional_only_first.

Theorem always_defer_repaired :
  machine_eff [S_ Always false; S_ Always false] [(0, 1%N)]%nat = spec [S_ Always false; S_ Always false] [(0, 1%N)]%nat
  /\ machine_eff [S_ Always true; S_ Always true] [(0, 5%N)]%nat = spec [S_ Always true; S_ Always true] [(0, 5%N)]%nat.
Proof. split; reflexivity. Qed.
Print Assumptions always_defer_repaired.

(* F3 (before the repair): an unconditional ("always") defer statement that was never reached is
   replayed anyway, and with arguments it consumes a foreign node *)
Theorem always_defer_refuted :
  machine [S_ Always false; S_ Always false] [(0, 1%N)]%nat <> spec [S_ Always false; S_ Always false] [(0, 1%N)]%nat
  /\ machine [S_ Always true; S_ Always true] [(0, 5%N)]%nat <> spec [S_ Always true; S_ Always true] [(0, 5%N)]%nat.
Proof. split; vm_compute; congruence. Qed.
Print Assumptions always_defer_refuted.

(* F18: replay follows block compile order, not execution order *)
Theorem lifo_compile_order_refuted :
  machine [S_ Cond true; S_ InLoop true] [(1, 10%N); (1, 11%N); (0, 7%N)]%nat
  <> spec [S_ Cond true; S_ InLoop true] [(1, 10%N); (1, 11%N); (0, 7%N)]%nat.
Proof. vm_compute. congruence. Qed.
Print Assumptions lifo_compile_order_refuted.

(* new finding: an argument-less conditional defer between two loop statements *)
Theorem loop_drain_crosses_argless_refuted :
  machine [S_ InLoop true; S_ Cond false; S_ InLoop true] [(0, 100%N); (1, 0%N)]%nat
  <> spec [S_ InLoop true; S_ Cond false; S_ InLoop true] [(0, 100%N); (1, 0%N)]%nat.
Proof. vm_compute. congruence. Qed.
Print Assumptions loop_drain_crosses_argless_refuted.

(* recover and re-panic: what each recover() reports and whether the function
   ends panicking are those of Go, for every shape, every consistent run and
   every assignment of behaviours (plain / recovers / panics again) to the
   deferred functions *)
Theorem recover_repanic_outcome_matches_go : forall sh kinds tr cur,
  consistent (effective sh) tr -> machine_outcome sh kinds tr cur = spec_outcome sh kinds tr cur.
Proof.
  intros sh kinds tr cur C. unfold machine_outcome, spec_outcome.
  now rewrite (defers_lifo_exactly_once_effective sh tr C).
Qed.
Print Assumptions recover_repanic_outcome_matches_go.

(* a directly called recover() as the last non-plain deferred call lets the
   function return normally *)
Theorem recover_stops_the_panic : forall kinds cs cur i,
  nth i kinds DPlain = DRecover ->
  (forall c, In c cs -> nth (fst c) kinds DPlain = DPlain) ->
  forall p, snd (outcome kinds ((i, p) :: cs) cur) = false.
Proof.
  intros kinds cs cur i Hi Hcs p. cbn [outcome fst]. rewrite Hi.
  assert (G : forall b, outcome kinds cs b = ([], b)).
  { induction cs as [|c r IH]; intros b; [reflexivity|]. cbn [outcome].
    rewrite (Hcs c (or_introl eq_refl)). apply IH. intros c' Hc'. apply Hcs. now right. }
  now rewrite G.
Qed.
Print Assumptions recover_stops_the_panic.

(* The frame is created where an unconditional first defer statement stands
   (at function entry otherwise): with that taken into account the machine makes
   Go's calls, and leaves Go's panic state, also for runs that panic before the
   first defer statement - no frame, no deferred call. *)
Theorem defers_lifo_exactly_once_with_frame_creation : forall sh tr,
  (frame_created sh tr = true -> consistent (effective sh) tr) ->
  (frame_created sh tr = false -> tr = []) ->
  machine_frame sh tr = spec sh tr.
Proof.
  intros sh tr Hc Hn. unfold machine_frame. destruct (frame_created sh tr).
  - now apply defers_lifo_exactly_once_effective, Hc.
  - now rewrite (Hn eq_refl).
Qed.
Print Assumptions defers_lifo_exactly_once_with_frame_creation.

Theorem outcome_with_frame_creation : forall sh kinds tr cur,
  (frame_created sh tr = true -> consistent (effective sh) tr) ->
  (frame_created sh tr = false -> tr = []) ->
  machine_frame_outcome sh kinds tr cur = spec_outcome sh kinds tr cur.
Proof.
  intros sh kinds tr cur Hc Hn. unfold machine_frame_outcome, spec_outcome.
  now rewrite (defers_lifo_exactly_once_with_frame_creation sh tr Hc Hn).
Qed.
Print Assumptions outcome_with_frame_creation.

Example frame_creation_nontrivial :
  frame_created [S_ Always false] [] = false /\ machine_frame [S_ Always false] [] = []
  /\ machine_eff [S_ Always false] [] <> [].
Proof. repeat split; try reflexivity. cbv. discriminate. Qed.
