(* C04 - the frame machine makes Go's calls.  replay_go is first freed of its
   flag (replay_go_s), the frame after a run is computed (run_regs_frame), then
   replay_suffix shows by induction on the number of statements still to replay,
   with the invariant suffix_inv, that the replay yields spec; machine_eq_spec
   is the instance for the whole run. *)
From LLGoV Require Import C04.Model.
Local Open Scope nat_scope.

(* The drain loop splits the node list into its leading loop nodes and the rest. *)

Fixpoint take_loop (sh : shape) (st : list (nat * N)) : list (nat * N) :=
  match st with
  | [] => []
  | nd :: st' => if is_loop sh (fst nd) then nd :: take_loop sh st' else []
  end.
Fixpoint drop_loop (sh : shape) (st : list (nat * N)) : list (nat * N) :=
  match st with
  | [] => []
  | nd :: st' => if is_loop sh (fst nd) then drop_loop sh st' else st
  end.

(* the call a drained node gets: its own statement's function, with itself *)
Definition own (nd : nat * N) : call := (fst nd, Some nd).

Lemma drain_spec sh st : drain sh st = (map own (take_loop sh st), drop_loop sh st).
Proof.
  induction st as [|nd st IH]; cbn [drain take_loop drop_loop map]; [reflexivity|].
  destruct (is_loop sh (fst nd)); [|reflexivity]. rewrite IH. reflexivity.
Qed.

Lemma take_drop sh st : st = take_loop sh st ++ drop_loop sh st.
Proof.
  induction st as [|nd st IH]; cbn; [reflexivity|].
  destruct (is_loop sh (fst nd)); cbn; [now rewrite <- IH | reflexivity].
Qed.

Lemma take_loop_all sh st : Forall (fun nd => is_loop sh (fst nd) = true) (take_loop sh st).
Proof.
  induction st as [|nd st IH]; cbn; [constructor|].
  destruct (is_loop sh (fst nd)) eqn:E; constructor; auto.
Qed.

Lemma drop_loop_head sh st :
  match drop_loop sh st with [] => True | d :: _ => is_loop sh (fst d) = false end.
Proof.
  induction st as [|nd st IH]; cbn; [exact I|].
  destruct (is_loop sh (fst nd)) eqn:E; [exact IH | exact E].
Qed.

Lemma drop_loop_idem sh st : take_loop sh (drop_loop sh st) = [].
Proof.
  pose proof (drop_loop_head sh st) as H. destruct (drop_loop sh st) as [|d r]; [reflexivity|].
  cbn. now rewrite H.
Qed.

(* replay that drains at every loop statement *)
Fixpoint replay_s (sh : shape) (todo : list (nat * stmt)) (bs : list nat) (st : list (nat * N)) : list call :=
  match todo with
  | [] => []
  | (i, s) :: rest =>
    match sk s with
    | Always => let '(cs, st') := call_defer i s st in cs ++ replay_s sh rest bs st'
    | Cond => if existsb (Nat.eqb i) bs
              then let '(cs, st') := call_defer i s st in cs ++ replay_s sh rest bs st'
              else replay_s sh rest bs st
    | InLoop => let '(cs, st') := drain sh st in cs ++ replay_s sh rest bs st'
    end
  end.

(* loopDrainerGenerated is set only directly after a drain, when no loop node is
   on top: the drain it suppresses would pop nothing *)
Lemma replay_go_s sh todo : forall bs st gen,
  (gen = true -> take_loop sh st = []) ->
  replay_go sh todo bs st gen = replay_s sh todo bs st.
Proof.
  induction todo as [|[i s] rest IH]; intros bs st gen G; [reflexivity|].
  cbn [replay_go replay_s]. destruct (sk s).
  - destruct (call_defer i s st) as [cs st']. now rewrite IH.
  - destruct (existsb (Nat.eqb i) bs); [destruct (call_defer i s st) as [cs st']|]; now rewrite IH.
  - rewrite drain_spec. destruct gen.
    + specialize (G eq_refl). pose proof (take_drop sh st) as D.
      rewrite G in D |- *. cbn [app map] in D |- *. rewrite <- D. now apply IH.
    + f_equal. apply IH. intros _. apply drop_loop_idem.
Qed.

(* a may be executed before b: its statement comes earlier in compile order,
   or both lie in one contiguous run of loop statements *)
Definition le_g (sh : shape) (a b : nat) : Prop :=
  a <= b \/ (b < a /\ forall k, b <= k <= a -> is_loop sh k = true).

Record consistent (sh : shape) (tr : list reg) : Prop := {
  c_valid : forall r, In r tr -> fst r < length sh;
  c_once : forall l1 a l2 b l3, tr = l1 ++ a :: l2 ++ b :: l3 -> fst a = fst b -> is_loop sh (fst a) = true;
  c_order : forall l1 a l2 b l3, tr = l1 ++ a :: l2 ++ b :: l3 -> le_g sh (fst a) (fst b);
  c_always : forall i s, nth_error sh i = Some s -> sk s = Always -> exists p, In (i, p) tr;
  c_nodes : (exists i, is_loop sh i = true) ->
            forall r s, In r tr -> nth_error sh (fst r) = Some s -> has_node s = true
}.

Lemma ordpairs_split {A} (R : A -> A -> Prop) l : ForallOrdPairs R l ->
  forall l1 a l2 b l3, l = l1 ++ a :: l2 ++ b :: l3 -> R a b.
Proof.
  induction 1 as [|x l Hx _ IH]; intros [|y l1] a l2 b l3 E; try discriminate; injection E as -> ->.
  - rewrite Forall_forall in Hx. apply Hx, in_elt.
  - now apply (IH l1 a l2 b l3).
Qed.

(* executing r pushes a node; executing a statement with index i sets a bit *)
Definition node_of (sh : shape) (r : reg) : bool :=
  match nth_error sh (fst r) with Some s => has_node s | None => false end.

Definition is_cond (sh : shape) (i : nat) : bool :=
  match nth_error sh i with Some s => kind_eqb (sk s) Cond | None => false end.

Lemma is_loop_kind sh i s : nth_error sh i = Some s -> is_loop sh i = kind_eqb (sk s) InLoop.
Proof. intros H. unfold is_loop. now rewrite H. Qed.

Lemma spec_call_node_of sh r : spec_call sh r = if node_of sh r then own r else (fst r, None).
Proof.
  unfold spec_call, node_of, own.
  destruct (nth_error sh (fst r)) as [s|]; [destruct (has_node s)|]; reflexivity.
Qed.

Lemma exec_reg_frame sh f r :
  exec_reg sh f r = {| bits := (if is_cond sh (fst r) then [fst r] else []) ++ bits f;
                       stack := (if node_of sh r then [r] else []) ++ stack f |}.
Proof.
  unfold exec_reg, is_cond, node_of. destruct r as [i p]. cbn [fst snd].
  destruct (nth_error sh i) as [s|]; [destruct (sk s), (has_node s) | destruct f]; reflexivity.
Qed.

Lemma run_regs_frame sh tr : forall f,
  fold_left (exec_reg sh) tr f =
  {| bits := map fst (filter (fun r => is_cond sh (fst r)) (rev tr)) ++ bits f;
     stack := filter (node_of sh) (rev tr) ++ stack f |}.
Proof.
  induction tr as [|r tr IH]; intros f; [now destruct f|].
  cbn [fold_left rev]. rewrite IH, exec_reg_frame, !filter_app, map_app, <- !app_assoc. cbn [bits stack filter].
  now destruct (is_cond sh (fst r)), (node_of sh r).
Qed.

Lemma run_regs_stack sh tr : stack (run_regs sh tr) = filter (node_of sh) (rev tr).
Proof. unfold run_regs. rewrite run_regs_frame. apply app_nil_r. Qed.

Lemma run_regs_bits sh tr k :
  existsb (Nat.eqb k) (bits (run_regs sh tr)) = true <-> is_cond sh k = true /\ exists p, In (k, p) tr.
Proof.
  unfold run_regs. rewrite run_regs_frame. cbn [bits frame0]. rewrite app_nil_r, existsb_exists. split.
  - intros (i & Hi & E). apply Nat.eqb_eq in E. subst i.
    apply in_map_iff in Hi as ([i p] & <- & Hr). apply filter_In in Hr as [Hr Hc].
    split; [exact Hc|]. exists p. now apply in_rev.
  - intros (Hc & p & Hp). exists k. split; [|apply Nat.eqb_refl].
    apply in_map_iff. exists (k, p). split; [reflexivity|].
    apply filter_In. split; [now apply in_rev in Hp | exact Hc].
Qed.

Lemma indexed_app {A} (l1 l2 : list A) : forall n,
  indexed n (l1 ++ l2) = indexed n l1 ++ indexed (n + length l1) l2.
Proof.
  induction l1 as [|x l1 IH]; intros n; cbn; [now rewrite Nat.add_0_r|].
  rewrite IH. replace (n + S (length l1)) with (S n + length l1) by lia. reflexivity.
Qed.

Lemma todo_step (sh : shape) (k : nat) (s : stmt) :
  nth_error sh k = Some s ->
  rev (indexed 0 (firstn (S k) sh)) = (k, s) :: rev (indexed 0 (firstn k sh)).
Proof.
  intros H.
  assert (E : firstn (S k) sh = firstn k sh ++ [s]).
  { revert k H. induction sh as [|x sh IH]; intros [|k] H; cbn in *; try discriminate.
    - now inversion H.
    - now rewrite (IH k H). }
  rewrite E, indexed_app, rev_app_distr. cbn.
  assert (L : length (firstn k sh) = k).
  { apply firstn_length_le. assert (k < length sh) by (apply nth_error_Some; congruence). lia. }
  now rewrite L.
Qed.

Section Main.
Variable sh : shape.
Variable tr : list reg.
Hypothesis C : consistent sh tr.

Lemma rev_split m1 d m2 r m3 :
  rev tr = m1 ++ d :: m2 ++ r :: m3 -> tr = rev m3 ++ r :: rev m2 ++ d :: rev m1.
Proof.
  intros E. rewrite <- (rev_involutive tr), E.
  rewrite rev_app_distr. cbn [rev]. rewrite rev_app_distr. cbn [rev].
  repeat rewrite <- app_assoc. cbn [app]. reflexivity.
Qed.

(* of two registrations that are not both of loop statements, the one executed
   earlier belongs to the statement compiled earlier *)
Lemma rev_lt m1 d m2 r m3 :
  rev tr = m1 ++ d :: m2 ++ r :: m3 -> is_loop sh (fst d) && is_loop sh (fst r) = false ->
  fst r < fst d.
Proof.
  intros E NL. apply rev_split in E.
  destruct (c_order sh tr C _ _ _ _ _ E) as [O|[O1 O2]].
  - destruct (Nat.eq_dec (fst r) (fst d)) as [Eq|]; [|lia].
    pose proof (c_once sh tr C _ _ _ _ _ E Eq) as L. rewrite <- Eq, L in NL. discriminate.
  - rewrite (O2 (fst d)), (O2 (fst r)) in NL by lia. discriminate.
Qed.

(* Replaying statements k-1 .. 0 on the nodes of a suffix [st] of the reversed
   run yields Go's calls for [st], provided [st] holds exactly what is still
   pending below k: everything in it belongs to a statement below k, and
   whatever of the run was consumed before it and lies below k is a loop
   registration (drained together with a later statement of the same run of
   loop statements). *)
Definition suffix_inv (k : nat) (st : list reg) : Prop :=
  exists post, rev tr = post ++ st
  /\ (forall r, In r st -> fst r < k)
  /\ (forall r, In r post -> fst r < k -> is_loop sh (fst r) = true).

Lemma in_rev_tr r st post : rev tr = post ++ st -> In r st -> In r tr.
Proof. intros E H. apply in_rev. rewrite E. apply in_or_app. now right. Qed.

Lemma suffix_skip k st : suffix_inv (S k) st -> (forall p, ~ In (k, p) tr) -> suffix_inv k st.
Proof.
  intros (post & E & Hlt & Hpost) Hk. exists post. repeat split; [exact E| |].
  - intros r Hr. specialize (Hlt r Hr). destruct (Nat.eq_dec (fst r) k) as [<-|]; [|lia].
    destruct (Hk (snd r)). rewrite <- surjective_pairing. exact (in_rev_tr r st post E Hr).
  - intros r Hr Hr2. apply Hpost; [exact Hr | lia].
Qed.

Lemma suffix_pop k p st : is_loop sh k = false -> suffix_inv (S k) st -> In (k, p) tr ->
  exists l, st = (k, p) :: l /\ suffix_inv k l.
Proof.
  intros NL (post & E & Hlt & Hpost) Hin.
  apply -> (@in_rev reg) in Hin. rewrite E in Hin. apply in_app_or in Hin as [Hin|Hin].
  { apply Hpost in Hin; cbn in *; [congruence | lia]. }
  apply in_split in Hin as (l1 & l & ->). destruct l1 as [|d l1].
  - exists l. split; [reflexivity|]. exists (post ++ [(k, p)]). repeat split.
    + rewrite E, <- app_assoc. reflexivity.
    + intros r Hr. apply in_split in Hr as (a & b & ->).
      apply (rev_lt post (k, p) a r b E). cbn [fst]. now rewrite NL.
    + intros r Hr Hr2. apply in_app_or in Hr as [Hr|[<-|[]]]; [apply Hpost; [exact Hr|lia] | cbn in Hr2; lia].
  - exfalso. specialize (Hlt d (or_introl eq_refl)).
    assert (k < fst d); [|lia]. apply (rev_lt post d l1 (k, p) l E). cbn [fst]. rewrite NL. apply andb_false_r.
Qed.

Lemma suffix_drain k tk dr : is_loop sh k = true -> suffix_inv (S k) (tk ++ dr) ->
  Forall (fun nd => is_loop sh (fst nd) = true) tk ->
  match dr with [] => True | d :: _ => is_loop sh (fst d) = false end ->
  suffix_inv k dr.
Proof.
  intros LK (post & E & Hlt & Hpost) TA HD. exists (post ++ tk). repeat split.
  - now rewrite <- app_assoc.
  - intros r Hr. destruct dr as [|d rest]; [destruct Hr|].
    assert (Hd : fst d < k).
    { specialize (Hlt d (in_elt d tk rest)). destruct (Nat.eq_dec (fst d) k) as [Eq|]; [|lia].
      rewrite Eq in HD. congruence. }
    destruct Hr as [<-|Hr]; [exact Hd|]. apply in_split in Hr as (a & b & ->).
    assert (fst r < fst d); [|lia].
    apply (rev_lt (post ++ tk) d a r b); [now rewrite <- app_assoc | now rewrite HD].
  - intros r Hr Hr2. apply in_app_or in Hr as [Hr|Hr]; [apply Hpost; [exact Hr | lia]|].
    rewrite Forall_forall in TA. now apply TA.
Qed.

Lemma loop_nodes r : (exists i, is_loop sh i = true) -> In r tr -> node_of sh r = true.
Proof.
  intros HL Hr. unfold node_of. pose proof (c_valid sh tr C r Hr) as V. apply nth_error_Some in V.
  destruct (nth_error sh (fst r)) as [s|] eqn:Hs; [|congruence].
  exact (c_nodes sh tr C HL r s Hr Hs).
Qed.

(* Statement k is replayed by its own call or by the drain; [F] is the replay of
   the statements below k. *)
Section Step.
Variable k : nat.
Variable F : list reg -> list call.
Hypothesis HF : forall l, suffix_inv k l -> F (filter (node_of sh) l) = map (spec_call sh) l.

Lemma step_exec s p st : nth_error sh k = Some s -> is_loop sh k = false -> In (k, p) tr ->
  suffix_inv (S k) st ->
  (let '(cs, st') := call_defer k s (filter (node_of sh) st) in cs ++ F st') = map (spec_call sh) st.
Proof.
  intros Hn NL Hp H. destruct (suffix_pop k p st NL H Hp) as (l & -> & Hl).
  cbn [filter map]. rewrite spec_call_node_of, <- (HF l Hl).
  assert (N : node_of sh (k, p) = has_node s) by (unfold node_of; cbn [fst]; now rewrite Hn).
  rewrite N. unfold call_defer. now destruct (has_node s).
Qed.

Lemma step_drain st : is_loop sh k = true -> suffix_inv (S k) st ->
  (let '(cs, st') := drain sh (filter (node_of sh) st) in cs ++ F st') = map (spec_call sh) st.
Proof.
  intros LK H. pose proof (take_drop sh st) as TD.
  assert (N : forall r, In r st -> node_of sh r = true).
  { destruct H as (post & E & _). intros r Hr. exact (loop_nodes r (ex_intro _ k LK) (in_rev_tr r st post E Hr)). }
  assert (Ndr : filter (node_of sh) (drop_loop sh st) = drop_loop sh st).
  { apply filter_all. intros r Hr. apply N. rewrite TD. apply in_or_app. now right. }
  rewrite (filter_all _ st N), drain_spec, <- Ndr, HF.
  - replace (map own (take_loop sh st)) with (map (spec_call sh) (take_loop sh st)).
    + rewrite <- map_app. f_equal. now symmetry.
    + apply map_ext_in. intros r Hr. rewrite spec_call_node_of, N; [reflexivity|].
      rewrite TD. apply in_or_app. now left.
  - rewrite TD in H. exact (suffix_drain k _ _ LK H (take_loop_all sh st) (drop_loop_head sh st)).
Qed.

End Step.

Lemma replay_suffix : forall k st, k <= length sh -> suffix_inv k st ->
  replay_s sh (rev (indexed 0 (firstn k sh))) (bits (run_regs sh tr)) (filter (node_of sh) st)
  = map (spec_call sh) st.
Proof.
  induction k as [|k IH]; intros st Hk H.
  - destruct H as (_ & _ & Hlt & _). destruct st as [|r st]; [reflexivity|].
    specialize (Hlt r (or_introl eq_refl)). lia.
  - destruct (nth_error sh k) as [s|] eqn:Hn; [|apply nth_error_None in Hn; lia].
    rewrite (todo_step sh k s Hn). cbn [replay_s].
    assert (HF : forall l, suffix_inv k l ->
              replay_s sh (rev (indexed 0 (firstn k sh))) (bits (run_regs sh tr)) (filter (node_of sh) l)
              = map (spec_call sh) l) by (intros l; apply IH; lia).
    pose proof (is_loop_kind sh k s Hn) as LK.
    pose proof (run_regs_bits sh tr k) as B. unfold is_cond in B. rewrite Hn in B.
    destruct (sk s) eqn:K; cbn [kind_eqb] in LK, B.
    + destruct (c_always sh tr C k s Hn K) as [p Hp]. now apply (step_exec k _ HF s p).
    + destruct (existsb (Nat.eqb k) (bits (run_regs sh tr))).
      * destruct (proj1 B eq_refl) as (_ & p & Hp). now apply (step_exec k _ HF s p).
      * apply HF, suffix_skip; [exact H|]. intros p Hp.
        assert (false = true) by (apply B; eauto). discriminate.
    + now apply (step_drain k _ HF).
Qed.

Theorem machine_eq_spec : machine sh tr = spec sh tr.
Proof.
  unfold machine, replay, spec.
  rewrite replay_go_s, run_regs_stack by discriminate.
  rewrite <- (firstn_all sh) at 2.
  apply replay_suffix; [lia|]. exists []. repeat split.
  - intros r Hr. apply (c_valid sh tr C). now apply in_rev.
  - intros r [].
Qed.

End Main.

Definition S_ (k : kind) (n : bool) : stmt := {| sk := k; snode := n |}.

(* the premises are satisfiable by a run with an unconditional, a loop and a
   conditional defer *)
Lemma consistent_example :
  consistent [S_ Always true; S_ InLoop true; S_ Cond true] [(0, 1%N); (1, 5%N); (1, 6%N); (2, 9%N)].
Proof.
  constructor.
  - intros r H. cbn in H. repeat (destruct H as [<-|H]; [cbn; lia|]). destruct H.
  - apply (ordpairs_split (fun a b => fst a = fst b -> is_loop _ (fst a) = true)).
    repeat constructor; cbn; discriminate.
  - apply (ordpairs_split (fun a b => le_g _ (fst a) (fst b))).
    repeat constructor.
  - intros i s Hn Hk. destruct i as [|[|[|i]]]; cbn in Hn; inversion Hn; subst; cbn in Hk; try discriminate.
    + exists 1%N. now left.
    + destruct i; discriminate.
  - intros _ r s H Hn. cbn in H.
    repeat (destruct H as [<-|H]; [cbn in Hn; inversion Hn; reflexivity|]). destruct H.
Qed.

(* the shape the compiler actually uses (later Always statements guarded) *)

Lemma has_node_guard t : has_node (guard_stmt t) = has_node t.
Proof. unfold guard_stmt, has_node. destruct (sk t) eqn:E; cbn; rewrite ?E; reflexivity. Qed.

Lemma nth_effective sh i :
  nth_error (effective sh) i = option_map (fun t => match i with 0 => t | _ => guard_stmt t end) (nth_error sh i).
Proof.
  destruct sh as [|s r]; [destruct i; reflexivity|]. destruct i as [|i]; [reflexivity|].
  cbn. rewrite nth_error_map. destruct (nth_error r i); reflexivity.
Qed.

Lemma spec_effective sh tr : spec (effective sh) tr = spec sh tr.
Proof.
  unfold spec. apply map_ext. intros r. unfold spec_call. rewrite nth_effective.
  destruct (nth_error sh (fst r)) as [t|]; cbn [option_map]; [|reflexivity].
  destruct (fst r); [reflexivity|]. now rewrite has_node_guard.
Qed.
