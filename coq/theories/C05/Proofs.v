(* C05 - lemmas about the slice model (Model.v).  First a small algebra of
   stores and loads on the block memory ([rd_wr_same], [rd_wr_advance],
   [nth_wr_outside]), then [nextslicecap_ge] and the contract of GrowSlice
   ([grow_slice_spec]), from which append follows; copy, clear and reslice use
   the same store lemmas.  [cap_loop_fuel]: each round of the growth loop
   multiplies the capacity by 5/4 at least. *)
From LLGoV Require Import C05.Model.
Local Open Scope Z_scope.

Lemma length_upd {A} (l : list A) i x : length (upd l i x) = length l.
Proof. revert i; induction l as [|y l IH]; intros [|i]; cbn; auto. Qed.

Lemma nth_upd_same {A} (l : list A) i x d : (i < length l)%nat -> nth i (upd l i x) d = x.
Proof. revert i; induction l as [|y l IH]; intros [|i]; cbn; intros; try lia; auto. apply IH; lia. Qed.

Lemma nth_upd_other {A} (l : list A) i j x d : i <> j -> nth j (upd l i x) d = nth j l d.
Proof.
  revert i j; induction l as [|y l IH]; intros [|i] [|j]; cbn; intros; try congruence; auto.
Qed.

Lemma length_splice a off bs :
  (off + length bs <= length a)%nat -> length (splice a off bs) = length a.
Proof. intros. unfold splice. rewrite !app_length, firstn_length, skipn_length. lia. Qed.

Lemma read_splice_upto a off bs o :
  (o <= off)%nat -> (off + length bs <= length a)%nat ->
  firstn (off - o + length bs) (skipn o (splice a off bs)) = firstn (off - o) (skipn o a) ++ bs.
Proof.
  intros. unfold splice. rewrite skipn_app, firstn_length.
  replace (o - Nat.min off (length a))%nat with 0%nat by lia. cbn [skipn].
  rewrite skipn_firstn_comm.
  set (p := firstn (off - o) (skipn o a)).
  assert (Hp : length p = (off - o)%nat) by (unfold p; rewrite firstn_length, skipn_length; lia).
  rewrite <- Hp at 1. rewrite firstn_app_2. f_equal.
  rewrite <- (Nat.add_0_r (length bs)), firstn_app_2. cbn. apply app_nil_r.
Qed.

Lemma nth_splice_outside a off bs i d :
  (off + length bs <= length a)%nat -> (i < off \/ off + length bs <= i)%nat ->
  nth i (splice a off bs) d = nth i a d.
Proof.
  intros Hfit Hi. unfold splice.
  assert (Hl : length (firstn off a) = off) by (rewrite firstn_length; lia).
  destruct Hi as [Hi|Hi].
  - rewrite app_nth1 by lia. rewrite <- (firstn_skipn off a) at 2. rewrite app_nth1 by lia. reflexivity.
  - rewrite app_nth2 by lia. rewrite app_nth2 by lia. rewrite Hl.
    rewrite <- (firstn_skipn (off + length bs) a) at 2.
    rewrite app_nth2 by (rewrite firstn_length; lia). rewrite firstn_length. f_equal. lia.
Qed.

Lemma nth_skipn_add {A} (l : list A) n i d : nth i (skipn n l) d = nth (n + i) l d.
Proof.
  revert n; induction l as [|x l IH]; intros [|n]; cbn; auto. destruct i; auto.
Qed.

Lemma read_splice_outside a off bs o n :
  (off + length bs <= length a)%nat -> (o + n <= off \/ off + length bs <= o)%nat ->
  firstn n (skipn o (splice a off bs)) = firstn n (skipn o a).
Proof.
  intros Hfit Ho.
  apply nth_ext with (d := 0) (d' := 0).
  - rewrite !firstn_length, !skipn_length, length_splice; auto.
  - intros i Hi. rewrite firstn_length, skipn_length, length_splice in Hi by auto.
    rewrite !nth_firstn_lt by lia. rewrite !nth_skipn_add. apply nth_splice_outside; auto. lia.
Qed.

Definition fits (h : heap) (p : ptr) (n : Z) : Prop :=
  0 <= poff p /\ poff p + n <= Z.of_nat (length (blk h (pid p))) /\ (pid p < length h)%nat.

Lemma wr_fits_eq h p bs : fits h p (Z.of_nat (length bs)) ->
  wr h p bs = upd h (pid p) (splice (blk h (pid p)) (Z.to_nat (poff p)) bs).
Proof.
  intros (H0 & H1 & H2). unfold wr.
  destruct (Z.leb_spec 0 (poff p)); try lia.
  destruct (Z.leb_spec (poff p + Z.of_nat (length bs)) (Z.of_nat (length (blk h (pid p))))); try lia.
  reflexivity.
Qed.

Lemma length_wr h p bs : length (wr h p bs) = length h.
Proof. unfold wr. destruct (_ && _); auto using length_upd. Qed.

Lemma blk_wr_other h p bs id : id <> pid p -> blk (wr h p bs) id = blk h id.
Proof.
  intros. unfold wr. destruct (_ && _); auto. unfold blk. apply nth_upd_other. congruence.
Qed.

Lemma blk_wr_same h p bs : fits h p (Z.of_nat (length bs)) ->
  blk (wr h p bs) (pid p) = splice (blk h (pid p)) (Z.to_nat (poff p)) bs.
Proof. intros F. rewrite wr_fits_eq by auto. unfold blk at 1. apply nth_upd_same. apply F. Qed.

Lemma length_blk_wr h p bs id : length (blk (wr h p bs) id) = length (blk h id).
Proof.
  unfold wr.
  destruct (Z.leb_spec 0 (poff p)); cbn [andb]; auto.
  destruct (Z.leb_spec (poff p + Z.of_nat (length bs)) (Z.of_nat (length (blk h (pid p))))); auto.
  destruct (Nat.eq_dec id (pid p)) as [->|N].
  - destruct (Nat.lt_ge_cases (pid p) (length h)).
    + unfold blk at 1. rewrite nth_upd_same by auto. apply length_splice. lia.
    + unfold blk. rewrite !nth_overflow; auto. rewrite length_upd; lia.
  - unfold blk. rewrite nth_upd_other; auto.
Qed.

Lemma blk_alloc_old h n id : (id < length h)%nat -> blk (fst (alloc h n)) id = blk h id.
Proof. intros. unfold alloc, blk; cbn. apply app_nth1; auto. Qed.

Lemma blk_alloc_new h n : blk (fst (alloc h n)) (length h) = repeat 0 (Z.to_nat n).
Proof. unfold alloc, blk; cbn. rewrite app_nth2 by lia. rewrite Nat.sub_diag. reflexivity. Qed.

Lemma fits_alloc_new h n m : 0 <= n -> m <= n -> fits (fst (alloc h n)) (mkP (length h) 0) m.
Proof.
  intros. unfold fits; cbn [pid poff]. rewrite blk_alloc_new, repeat_length.
  unfold alloc; cbn [fst]. rewrite app_length. cbn. lia.
Qed.

Lemma length_rd h p n : 0 <= n -> fits h p n -> length (rd h p n) = Z.to_nat n.
Proof. intros Hn (H0 & H1 & _). unfold rd. rewrite firstn_length, skipn_length. lia. Qed.

Definition wf_slice (es : Z) (h : heap) (s : slice) : Prop :=
  0 <= slen s <= scap s /\ fits h (sdata s) (scap s * es).

(* the source operand really has n bytes *)
Definition src_ok (h : heap) (src : source) (n : Z) : Prop :=
  match src with
  | SrcPtr p => fits h p n
  | SrcBytes bs => n <= Z.of_nat (length bs)
  end.

Lemma length_src_read h src n : 0 <= n -> src_ok h src n -> length (src_read h src n) = Z.to_nat n.
Proof.
  intros Hn. destruct src as [p|bs]; cbn; intros Hs.
  - apply length_rd; auto.
  - rewrite firstn_length. lia.
Qed.

Lemma src_read_alloc h src n m : src_ok h src n -> src_read (fst (alloc h m)) src n = src_read h src n.
Proof.
  destruct src as [p|bs]; cbn; auto. intros (_ & _ & Hp). unfold rd.
  change (h ++ [repeat 0 (Z.to_nat m)]) with (fst (alloc h m)). now rewrite blk_alloc_old.
Qed.

Ltac pows := change (2 ^ 64) with 18446744073709551616 in *;
             change (2 ^ 63) with 9223372036854775808 in *.

Lemma wrap64_small z : 0 <= z < 2 ^ 63 -> wrap64 z = z.
Proof.
  intros. unfold wrap64. rewrite Z.mod_small by (pows; lia).
  destruct (Z.ltb_spec z (2 ^ 63)); lia.
Qed.

Lemma wrap64_range z : - 2 ^ 63 <= wrap64 z < 2 ^ 63.
Proof.
  unfold wrap64. pose proof (Z.mod_pos_bound z (2 ^ 64) ltac:(pows; lia)).
  destruct (Z.ltb_spec (z mod 2 ^ 64) (2 ^ 63)); pows; lia.
Qed.

Lemma u64_small z : 0 <= z < 2 ^ 64 -> u64 z = z.
Proof. intros. unfold u64. apply Z.mod_small; auto. Qed.

Lemma cap_loop_some fuel c n nc : cap_loop fuel c n = Some nc ->
  u64 n <= u64 nc /\ - 2 ^ 63 <= nc < 2 ^ 63.
Proof.
  revert c; induction fuel as [|f IH]; intros c; cbn [cap_loop]; cbv zeta; try discriminate.
  match goal with |- context [if ?b then _ else _] => destruct b eqn:E end.
  - intros [= <-]. split; [now apply Z.leb_le|apply wrap64_range].
  - apply IH.
Qed.

Lemma nextslicecap_ge newLen oldCap :
  0 <= oldCap < 2 ^ 63 -> 0 < newLen < 2 ^ 63 -> newLen <= nextslicecap newLen oldCap.
Proof.
  intros Hc Hn. unfold nextslicecap, nextslicecap_opt.
  destruct (Z.ltb_spec (wrap64 (oldCap + oldCap)) newLen); try lia.
  destruct (Z.ltb_spec oldCap 256).
  - rewrite wrap64_small in * by (pows; lia). lia.
  - destruct (cap_loop cap_fuel oldCap newLen) as [nc|] eqn:E; try lia.
    apply cap_loop_some in E as (E & R).
    destruct (Z.leb_spec nc 0); try lia.
    rewrite !u64_small in E by (pows; lia). lia.
Qed.

Lemma upd_nth_same {A} (l : list A) i d : upd l i (nth i l d) = l.
Proof. revert i; induction l as [|x l IH]; intros [|i]; cbn; auto. now rewrite IH. Qed.

Lemma splice_nil a off : splice a off [] = a.
Proof. unfold splice. cbn. rewrite Nat.add_0_r. apply firstn_skipn. Qed.

Lemma wr_nil h p : wr h p [] = h.
Proof. unfold wr. destruct (_ && _); auto. rewrite splice_nil. apply upd_nth_same. Qed.

Lemma rd_zero h p : rd h p 0 = [].
Proof. reflexivity. Qed.

Lemma rd_ext h1 h2 p n : blk h1 (pid p) = blk h2 (pid p) -> rd h1 p n = rd h2 p n.
Proof. unfold rd. now intros ->. Qed.

Lemma fits_wr h q bs p n : fits (wr h q bs) p n <-> fits h p n.
Proof. unfold fits. rewrite length_blk_wr, length_wr. tauto. Qed.

Lemma fits_alloc_old h m p n : fits h p n -> fits (fst (alloc h m)) p n.
Proof.
  intros (A & B & C). unfold fits. rewrite blk_alloc_old by auto. repeat split; auto.
  unfold alloc; cbn. rewrite app_length. lia.
Qed.

Lemma rd_wr_advance h p k bs :
  0 <= k -> 0 <= poff p -> fits h (advance p k) (Z.of_nat (length bs)) ->
  rd (wr h (advance p k) bs) p (k + Z.of_nat (length bs)) = rd h p k ++ bs.
Proof.
  intros Hk Hp F. unfold rd. rewrite (blk_wr_same h (advance p k)) by auto.
  destruct F as (_ & F1 & _). cbn [advance pid poff] in *.
  replace (Z.to_nat (k + Z.of_nat (length bs)))
    with (Z.to_nat (poff p + k) - Z.to_nat (poff p) + length bs)%nat by lia.
  rewrite read_splice_upto by lia. do 2 f_equal. lia.
Qed.

Lemma rd_wr_same h p bs : fits h p (Z.of_nat (length bs)) -> rd (wr h p bs) p (Z.of_nat (length bs)) = bs.
Proof.
  intros F. unfold rd. rewrite blk_wr_same by auto. destruct F as (F0 & F1 & _).
  rewrite Nat2Z.id, <- (Nat.add_0_l (length bs)), <- (Nat.sub_diag (Z.to_nat (poff p))).
  rewrite read_splice_upto by lia. now rewrite Nat.sub_diag.
Qed.

Lemma nth_wr_outside h p bs i d :
  fits h p (Z.of_nat (length bs)) ->
  Z.of_nat i < poff p \/ poff p + Z.of_nat (length bs) <= Z.of_nat i ->
  nth i (blk (wr h p bs) (pid p)) d = nth i (blk h (pid p)) d.
Proof.
  intros F Hi. rewrite blk_wr_same by auto. destruct F as (F0 & F1 & _). apply nth_splice_outside; lia.
Qed.

Lemma src_read_ext h1 h2 src n :
  (forall id, (id < length h1)%nat -> blk h2 id = blk h1 id) ->
  src_ok h1 src n -> src_read h2 src n = src_read h1 src n.
Proof.
  destruct src as [p|bs]; cbn; auto. intros E (_ & _ & Hp). apply rd_ext. now apply E.
Qed.

Lemma mul_le_es' a b es : 0 <= es -> a <= b -> a * es <= b * es.
Proof. intros. now apply Z.mul_le_mono_nonneg_r. Qed.

Lemma mul_le_es a b es : 0 < es -> a <= b -> a * es <= b * es.
Proof. intros. apply mul_le_es'; lia. Qed.

(* GrowSlice: room for num more elements, the old contents in place (same
   array when the capacity suffices, a fresh block otherwise), nothing that
   existed before is modified *)
Lemma grow_slice_spec es h s num h1 s1 :
  0 <= es -> 0 <= num -> slen s + num < 2 ^ 63 -> scap s < 2 ^ 63 -> wf_slice es h s ->
  grow_slice es h s num = (h1, s1) ->
  slen s1 = slen s + num /\ wf_slice es h1 s1
  /\ rd h1 (sdata s1) (slen s * es) = rd h (sdata s) (slen s * es)
  /\ (forall id, (id < length h)%nat -> blk h1 id = blk h id)
  /\ (slen s + num <= scap s -> h1 = h /\ sdata s1 = sdata s /\ scap s1 = scap s)
  /\ (scap s < slen s + num -> sdata s1 = mkP (length h) 0 /\ length h1 = S (length h)).
Proof.
  intros Hes Hnum Hbig Hcapb ((Hl0 & Hl1) & F). unfold grow_slice.
  destruct (Z.ltb_spec (scap s) (slen s + num)) as [Hg|Hg].
  - (* a fresh block *)
    pose proof (nextslicecap_ge (slen s + num) (scap s) ltac:(lia) ltac:(lia)) as Hge.
    set (nc := nextslicecap (slen s + num) (scap s)) in *.
    pose proof (mul_le_es' 0 (slen s) es Hes Hl0) as M0.
    pose proof (mul_le_es' (slen s) nc es Hes ltac:(lia)) as M1.
    pose proof (mul_le_es' (slen s) (scap s) es Hes Hl1) as M2.
    unfold alloc. set (p := mkP (length h) 0). set (h0 := h ++ _).
    assert (Old0 : forall id, (id < length h)%nat -> blk h0 id = blk h id) by apply (blk_alloc_old h).
    set (old := rd h (sdata s) (slen s * es)).
    assert (Lold : length old = Z.to_nat (slen s * es)).
    { apply length_rd; [lia|]. destruct F as (A & B & C). repeat split; auto; lia. }
    assert (Fp : forall n, n <= nc * es -> fits h0 p n) by (intros; apply (fits_alloc_new h (nc * es)); lia).
    match goal with |- (?h2, _) = _ -> _ => assert (Eh2 : h2 = wr h0 p old) end.
    { destruct (Z.eqb_spec (slen s) 0) as [Z0|NZ].
      - assert (old = []) as -> by (unfold old; rewrite Z0; reflexivity). now rewrite wr_nil.
      - unfold memcpy, memmove; cbn [src_read]. f_equal. apply rd_ext, Old0, F. }
    rewrite Eh2. intros [= <- <-]. unfold wf_slice. cbn [slen scap sdata].
    split; [reflexivity|]. split; [|split; [|split; [|split]]].
    + split; [lia|]. apply fits_wr, Fp. lia.
    + rewrite <- (Z2Nat.id (slen s * es)), <- Lold by lia. apply rd_wr_same, Fp. lia.
    + intros id Hid. rewrite blk_wr_other by (cbn; lia). now apply Old0.
    + lia.
    + intros _. split; [reflexivity|]. rewrite length_wr. unfold h0. rewrite app_length. cbn [length]. lia.
  - (* in place *)
    intros [= <- <-]. unfold wf_slice. cbn [slen scap sdata].
    split; [reflexivity|]. split; [|split; [|split; [|split]]].
    + split; [lia|exact F].
    + reflexivity.
    + reflexivity.
    + auto.
    + lia.
Qed.

Theorem append_spec_lemma fixed es h s src num h' r ovl :
  0 < es -> 0 <= num -> slen s + num < 2 ^ 63 -> scap s < 2 ^ 63 ->
  wf_slice es h s -> src_ok h src (num * es) ->
  slice_append_gen fixed es h s src num = (h', r, ovl) ->
  slen r = slen s + num
  /\ rd h' (sdata r) (slen r * es) = rd h (sdata s) (slen s * es) ++ src_read h src (num * es)
  /\ wf_slice es h' r
  /\ (slen s + num <= scap s ->
        sdata r = sdata s /\ scap r = scap s /\ length h' = length h
        /\ forall i d, (Z.of_nat i < poff (sdata s) + slen s * es
                        \/ poff (sdata s) + (slen s + num) * es <= Z.of_nat i) ->
             nth i (blk h' (pid (sdata s))) d = nth i (blk h (pid (sdata s))) d)
  /\ (scap s < slen s + num ->
        sdata r = mkP (length h) 0 /\ length h' = S (length h) /\ slen r <= scap r)
  /\ (forall id, (id < length h)%nat -> id <> pid (sdata r) -> blk h' id = blk h id).
Proof.
  intros Hes Hnum Hbig Hcapb W Hsrc. unfold slice_append_gen.
  destruct (Z.eqb_spec es 0); [lia|].
  destruct (grow_slice es h s num) as [h1 s1] eqn:G.
  apply grow_slice_spec in G as (L1 & (B1 & F1) & R1 & O1 & Inplace & Grown); auto; try lia.
  destruct W as ((Hl0 & _) & _). intros [= <- <- <-]. unfold memmove.
  rewrite (src_read_ext h h1) by auto.
  set (data := src_read h src (num * es)).
  assert (Ldata : Z.of_nat (length data) = num * es).
  { unfold data. rewrite length_src_read; auto; nia. }
  pose proof (mul_le_es' 0 (slen s) es ltac:(lia) Hl0) as M0.
  pose proof (mul_le_es' (slen s1) (scap s1) es ltac:(lia) ltac:(lia)) as M1.
  assert (Fd : fits h1 (advance (sdata s1) (slen s * es)) (Z.of_nat (length data))).
  { destruct F1 as (A & B & C). unfold fits, advance; cbn [pid poff]. repeat split; auto; lia. }
  split; [exact L1|]. split.
  { rewrite <- R1, L1. replace ((slen s + num) * es) with (slen s * es + Z.of_nat (length data)) by lia.
    apply rd_wr_advance; auto. apply F1. }
  split; [split; [lia|apply fits_wr, F1]|]. split.
  { intros Hfit. destruct (Inplace Hfit) as (-> & Ed & Ec). rewrite Ed in Fd |- *. rewrite length_wr.
    repeat split; auto. intros i d Hi. apply (nth_wr_outside _ _ _ _ _ Fd). cbn [advance poff]. lia. }
  split; [intros Hg; destruct (Grown Hg) as (Ed & Lh); rewrite length_wr; repeat split; auto; lia|].
  intros id Hid Hne. rewrite blk_wr_other by auto. now apply O1.
Qed.

(* zero-size elements, the code that exists: the length grows by num, cap
   follows when needed, no byte of memory changes, a non-empty result is not
   nil, and nothing is allocated when the capacity suffices *)
Lemma append_zero_size_lemma h s src num h' r ovl :
  0 <= num -> wf_slice 0 h s ->
  slice_append_gen true 0 h s src num = (h', r, ovl) ->
  slen r = slen s + num
  /\ slen r <= scap r
  /\ wf_slice 0 h' r
  /\ ovl = false
  /\ (forall id, (id < length h)%nat -> blk h' id = blk h id)
  /\ (slen s + num <= scap s -> h' = h /\ sdata r = sdata s /\ scap r = scap s)
  /\ (scap s < slen s + num -> is_nil (sdata r) = false).
Proof.
  intros Hnum ((L0 & L1) & F). rewrite Z.mul_0_r in F. unfold slice_append_gen. cbn [Z.eqb].
  destruct (Z.ltb_spec (scap s) (slen s + num)) as [Hg|Hg]; [destruct (is_nil (sdata s)) eqn:N|];
    intros [= <- <- <-]; unfold wf_slice; cbn [slen scap sdata]; rewrite Z.mul_0_r.
  - (* a nil slice gets the fresh empty block *)
    destruct F as (_ & _ & F2).
    split; [reflexivity|]. split; [lia|]. split; [|split; [reflexivity|split; [|split]]].
    + split; [lia|]. apply (fits_alloc_new h 0); lia.
    + apply (blk_alloc_old h 0).
    + lia.
    + intros _. unfold is_nil; cbn [pid]. destruct (length h); [lia|reflexivity].
  - (* the capacity alone grows *)
    split; [reflexivity|]. split; [lia|]. split; [split; [lia|exact F]|]. split; [reflexivity|].
    split; [reflexivity|]. split; [lia|]. intros _. exact N.
  - (* room enough *)
    split; [reflexivity|]. split; [lia|]. split; [split; [lia|exact F]|]. split; [reflexivity|].
    split; [reflexivity|]. split; [auto|]. lia.
Qed.

(* the memcpy contract before the repair: never broken when the slice grew, but
   broken by in-place appends; with memmove there is no contract to break *)
Lemma append_grow_no_overlap fixed es h s src num :
  0 < es -> wf_slice es h s -> src_ok h src (num * es) -> scap s < slen s + num ->
  snd (slice_append_gen fixed es h s src num) = false.
Proof.
  intros Hes (_ & F) Hs Hg. unfold slice_append_gen. destruct (Z.eqb_spec es 0); try lia.
  unfold grow_slice. destruct (Z.ltb_spec (scap s) (slen s + num)); try lia.
  destruct (alloc h _) as [h1 p] eqn:EA. cbn [snd sdata].
  destruct fixed; auto.
  assert (Ep : p = mkP (length h) 0) by (unfold alloc in EA; congruence). subst p.
  destruct src as [q|bs]; cbn; auto. destruct Hs as (_ & _ & Hq).
  unfold overlap; cbn [pid poff advance].
  destruct (Nat.eqb_spec (length h) (pid q)); try lia; try (now rewrite andb_false_r).
Qed.

Lemma src_ok_le h src n m : 0 <= m <= n -> src_ok h src n -> src_ok h src m.
Proof.
  destruct src as [p|bs]; cbn; [|lia]. unfold fits. intros ? (A & B & C). repeat split; auto; lia.
Qed.

Lemma copy_spec_lemma es h dst src num h' n :
  0 <= es -> 0 <= num -> wf_slice es h dst -> src_ok h src (num * es) ->
  slice_copy es h dst src num = (h', n) ->
  n = Z.min (slen dst) num
  /\ rd h' (sdata dst) (n * es) = src_read h src (n * es)
  /\ (forall i d, (Z.of_nat i < poff (sdata dst) \/ poff (sdata dst) + n * es <= Z.of_nat i) ->
        nth i (blk h' (pid (sdata dst))) d = nth i (blk h (pid (sdata dst))) d)
  /\ (forall id, id <> pid (sdata dst) -> blk h' id = blk h id)
  /\ length h' = length h.
Proof.
  intros Hes Hnum ((L0 & L1) & (F0 & F1 & F2)) Hs. unfold slice_copy.
  set (m := if num <? slen dst then num else slen dst).
  assert (Em : m = Z.min (slen dst) num) by (unfold m; destruct (Z.ltb_spec num (slen dst)); lia).
  destruct (Z.ltb_spec 0 m) as [Hp|Hp]; intros [= <- <-].
  - pose proof (mul_le_es' 0 m es Hes ltac:(lia)). pose proof (mul_le_es' m num es Hes ltac:(lia)).
    pose proof (mul_le_es' m (scap dst) es Hes ltac:(lia)).
    unfold memmove. set (data := src_read h src (m * es)).
    assert (Ld : Z.of_nat (length data) = m * es).
    { unfold data. rewrite length_src_read; [lia|lia|]. apply src_ok_le with (n := num * es); auto; lia. }
    assert (Fd : fits h (sdata dst) (Z.of_nat (length data))) by (rewrite Ld; repeat split; auto; lia).
    rewrite <- Ld. split; [exact Em|]. split; [now apply rd_wr_same|]. split; [|split].
    + intros i d Hi. now apply nth_wr_outside.
    + intros id Hid. now apply blk_wr_other.
    + apply length_wr.
  - split; auto. assert (m * es = 0 \/ m * es < 0) as [->| ] by nia.
    + split; [destruct src; reflexivity|]. auto.
    + split; [|auto]. unfold rd. destruct src; cbn; destruct (m * es); try lia; reflexivity.
Qed.

Lemma skipn_skipn_add {A} (l : list A) a b : skipn a (skipn b l) = skipn (b + a) l.
Proof. revert l; induction b as [|b IH]; intros l; cbn; auto. destruct l; cbn; auto. now destruct a. Qed.

Lemma new_slice3_ok base es cap i j k : 0 <= i <= j -> j <= k <= cap ->
  new_slice3 base es cap i j k
  = Ok (mkS (if 0 <? k - i then advance base (i * es) else base) (j - i) (k - i)).
Proof.
  intros. unfold new_slice3.
  replace ((k <? 0) || (cap <? k)) with false by lia. replace ((j <? 0) || (k <? j)) with false by lia.
  now replace ((i <? 0) || (j <? i)) with false by lia.
Qed.

Lemma reslice_ok_lemma es h base cap i j k :
  0 <= es -> 0 <= poff base -> 0 <= i <= j -> j <= k <= cap ->
  exists r, new_slice3 base es cap i j k = Ok r /\ slen r = j - i /\ scap r = k - i
    /\ rd h (sdata r) ((k - i) * es) = skipn (Z.to_nat (i * es)) (rd h base (k * es))
    /\ (wf_slice es h (mkS base 0 cap) -> wf_slice es h r).
Proof.
  intros Hes Hoff Hi Hk. rewrite new_slice3_ok by auto.
  pose proof (mul_le_es' 0 i es Hes ltac:(lia)). pose proof (mul_le_es' i k es Hes ltac:(lia)).
  pose proof (mul_le_es' k cap es Hes ltac:(lia)).
  eexists; split; [reflexivity|]. cbn [slen scap sdata]. split; [lia|]. split; [lia|]. split.
  - destruct (Z.ltb_spec 0 (k - i)).
    + unfold rd, advance; cbn [pid poff]. rewrite skipn_firstn_comm, skipn_skipn_add.
      f_equal; [lia|]. f_equal. lia.
    + assert (k = i) as -> by lia. rewrite Z.sub_diag. cbn.
      unfold rd. rewrite skipn_firstn_comm. now rewrite Nat.sub_diag.
  - intros (_ & A & B & C). cbn [sdata scap] in *. unfold wf_slice; cbn [slen scap sdata]. split; [lia|].
    destruct (Z.ltb_spec 0 (k - i)); unfold fits, advance; cbn [pid poff]; repeat split; auto; lia.
Qed.

Lemma clear_spec_lemma es h s :
  0 <= es -> slen s < 2 ^ 63 -> wf_slice es h s ->
  let h' := slice_clear es h s in
  rd h' (sdata s) (slen s * es) = repeat 0 (Z.to_nat (slen s * es))
  /\ (forall i d, (Z.of_nat i < poff (sdata s) \/ poff (sdata s) + slen s * es <= Z.of_nat i) ->
        nth i (blk h' (pid (sdata s))) d = nth i (blk h (pid (sdata s))) d)
  /\ (forall id, id <> pid (sdata s) -> blk h' id = blk h id).
Proof.
  intros Hes Hb ((L0 & L1) & (F0 & F1 & F2)). unfold slice_clear.
  rewrite u64_small by (pows; lia).
  pose proof (mul_le_es' 0 (slen s) es Hes L0). pose proof (mul_le_es' (slen s) (scap s) es Hes L1).
  set (z := repeat 0 (Z.to_nat (slen s * es))).
  assert (Lz : Z.of_nat (length z) = slen s * es) by (unfold z; rewrite repeat_length; lia).
  assert (Fz : fits h (sdata s) (Z.of_nat (length z))) by (rewrite Lz; repeat split; auto; lia).
  cbv zeta. rewrite <- Lz. split; [now apply rd_wr_same|]. split.
  - intros i d Hi. now apply nth_wr_outside.
  - intros id Hid. now apply blk_wr_other.
Qed.

Lemma cap_loop_progress f c n :
  256 <= c < n -> n <= 2 ^ 62 ->
  cap_loop (S f) c n <> None
  \/ exists c1, 5 * c <= 4 * c1 /\ 256 <= c1 < n /\ cap_loop (S f) c n = cap_loop f c1 n.
Proof.
  intros Hc Hn. cbn [cap_loop]. cbv zeta.
  assert (P62 : 2 ^ 62 = 4611686018427387904) by reflexivity.
  rewrite (wrap64_small (c + 768)) by (pows; lia).
  rewrite Z.shiftr_div_pow2 by lia. change (2 ^ 2) with 4.
  pose proof (Z.div_mod (c + 768) 4 ltac:(lia)) as D.
  pose proof (Z.mod_pos_bound (c + 768) 4 ltac:(lia)) as M.
  set (q := (c + 768) / 4) in *.
  rewrite (wrap64_small (c + q)) by (pows; lia).
  rewrite !u64_small by (pows; lia).
  destruct (Z.leb_spec n (c + q)).
  - left. discriminate.
  - right. exists (c + q). repeat split; try lia.
Qed.

(* fuel f suffices once (5/4)^f reaches n/c: every round multiplies the capacity by 5/4 at least
   (cap_loop_progress) *)
Lemma cap_loop_fuel f : forall c n,
  256 <= c < n -> n <= 2 ^ 62 -> n * 4 ^ Z.of_nat f <= c * 5 ^ Z.of_nat f -> cap_loop f c n <> None.
Proof.
  induction f as [|f IH]; intros c n Hc Hn Hf; [cbn in Hf; lia|].
  destruct (cap_loop_progress f c n Hc Hn) as [D|(c1 & G & B & E)]; auto.
  rewrite E. apply IH; auto.
  rewrite Nat2Z.inj_succ, !Z.pow_succ_r in Hf by lia.
  pose proof (Z.pow_nonneg 5 (Z.of_nat f) ltac:(lia)). nia.
Qed.

Lemma reslice_panic_lemma es base cap i j k :
  ~ (0 <= i <= j /\ j <= k <= cap) -> exists c x y, new_slice3 base es cap i j k = Panic c x y.
Proof.
  intros N. unfold new_slice3.
  destruct (Z.ltb_spec k 0); [cbn; eauto|]. destruct (Z.ltb_spec cap k); [cbn; eauto|].
  destruct (Z.ltb_spec j 0); [cbn; eauto|]. destruct (Z.ltb_spec k j); [cbn; eauto|].
  destruct (Z.ltb_spec i 0); [cbn; eauto|]. destruct (Z.ltb_spec j i); [cbn; eauto|]. lia.
Qed.
