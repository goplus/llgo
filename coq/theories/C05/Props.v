(* C05 - property theorems only.  Each is closed by [exact <lemma>] or by a few
   lines from the lemmas of Proofs.v / StrProofs.v, and followed
   by Print Assumptions (the driver re-prints them on every run).
   Slices: Model.v (memory = list of byte blocks, slice = pointer/len/cap,
   element size es a parameter).  Strings: StrModel.v (byte lists). *)
From LLGoV Require Import C05.Model C05.StrModel C05.Proofs C05.StrProofs.
Local Open Scope Z_scope.

(* append.  [slice_append = slice_append_gen true] is the code that exists;
   [slice_append_gen false] is SliceAppend before the two repairs (zero-size
   elements returned unchanged; memcpy instead of memmove).
   For every element size es > 0, every well-formed slice s and every
   source of num elements (bytes in the caller's frame, or memory that may lie
   inside s's own backing array): the result has len(s)+num elements; its
   contents are the old contents of s followed by the source bytes AS THEY
   WERE BEFORE THE CALL (so an aliasing source is handled: the copy is a
   memmove); when the capacity suffices the result has the same data pointer
   and capacity, the heap gets no new block and no byte outside the appended
   range changes; when it does not, the result lives in a block that did not
   exist before (id = length h) with cap >= len; no other existing block is
   modified either way. *)
Theorem append_spec : forall fixed es h s src num h' r ovl,
  0 < es -> 0 <= num -> slen s + num < 2 ^ 63 -> scap s < 2 ^ 63 ->
  wf_slice es h s -> src_ok h src (num * es) ->
  slice_append_gen fixed es h s src num = (h', r, ovl) ->
  slen r = slen s + num
  /\ rd h' (sdata r) (slen r * es) = rd h (sdata s) (slen s * es) ++ src_read h src (num * es)
  /\ wf_slice es h' r
  /\ (slen s + num <= scap s ->
        sdata r = sdata s /\ scap r = scap s /\ length h' = length h
        /\ forall i d, (Z.of_nat i < poff (sdata s) + slen s * es
                        \/ poff (sdata s) + (slen s + num) * es <= Z.of_nat i) ->
             nth i (blk h' (pid (sdata s))) d = nth i (blk h (pid (sdata s))) d)
  /\ (scap s < slen s + num ->
        sdata r = mkP (length h) 0 /\ length h' = S (length h) /\ slen r <= scap r)
  /\ (forall id, (id < length h)%nat -> id <> pid (sdata r) -> blk h' id = blk h id).
Proof. exact append_spec_lemma. Qed.
Print Assumptions append_spec.

(* the hypotheses are satisfiable: the insert idiom append(x[:2], x[1:3]...)
   on an 8-byte block, source overlapping the destination *)
Example append_nontrivial :
  let h := [[]; [1; 2; 3; 0; 0; 0; 0; 0]] in
  let s := mkS (mkP 1 0) 2 8 in
  wf_slice 1 h s /\ src_ok h (SrcPtr (mkP 1 1)) (2 * 1)
  /\ slice_append 1 h s (SrcPtr (mkP 1 1)) 2
     = ([[]; [1; 2; 2; 3; 0; 0; 0; 0]], mkS (mkP 1 0) 4 8, false).
Proof. unfold wf_slice, src_ok, fits. cbn. intuition lia. Qed.

(* element size 0 (the code that exists): the length grows by num, cap >= len,
   the result is well formed, no existing block is touched; when the capacity
   suffices nothing is allocated and pointer and capacity are kept; when it
   does not, the result is not the nil slice *)
Theorem append_zero_size_spec : forall h s src num h' r ovl,
  0 <= num -> wf_slice 0 h s ->
  slice_append 0 h s src num = (h', r, ovl) ->
  slen r = slen s + num
  /\ slen r <= scap r
  /\ wf_slice 0 h' r
  /\ ovl = false
  /\ (forall id, (id < length h)%nat -> blk h' id = blk h id)
  /\ (slen s + num <= scap s -> h' = h /\ sdata r = sdata s /\ scap r = scap s)
  /\ (scap s < slen s + num -> is_nil (sdata r) = false).
Proof. exact append_zero_size_lemma. Qed.
Print Assumptions append_zero_size_spec.

Example append_zero_size_nontrivial :   (* append([]struct{}(nil), struct{}{}) *)
  wf_slice 0 heap0 nils
  /\ slice_append 0 heap0 nils (SrcBytes []) 1 = ([[]; []], mkS (mkP 1 0) 1 1, false).
Proof. unfold wf_slice, fits. cbn. intuition lia. Qed.

(* before the repair (fixed = false) the property failed for element size 0:
   SliceAppend returned its argument unchanged, so the length did not grow
   (finding F2; the harness still replays this witness on the real code) *)
Theorem append_zero_size_unfixed_refuted :
  exists h s src num, wf_slice 0 h s /\ src_ok h src (num * 0) /\ 0 < num /\
    slen (snd (fst (slice_append_gen false 0 h s src num))) <> slen s + num.
Proof. exists heap0, nils, (SrcBytes []), 1. unfold wf_slice, fits. cbn. intuition lia. Qed.
Print Assumptions append_zero_size_unfixed_refuted.

Theorem append_zero_size_unfixed_returns_argument : forall h s src num,
  slice_append_gen false 0 h s src num = (h, s, false).
Proof. reflexivity. Qed.
Print Assumptions append_zero_size_unfixed_returns_argument.

(* memcpy contract (C: the ranges must not overlap).  The code that exists
   copies with memmove, so there is no contract to break; before the repair the
   contract was kept whenever the slice grew, but there was a well-formed
   in-place append that broke it *)
Theorem append_overlap_no_contract : forall es h s src num,
  snd (slice_append es h s src num) = false.
Proof.
  intros es h s src num. unfold slice_append, slice_append_gen. destruct (es =? 0).
  - destruct (scap s <? slen s + num); [destruct (is_nil (sdata s))|]; reflexivity.
  - destruct (grow_slice es h s num). reflexivity.
Qed.
Print Assumptions append_overlap_no_contract.

Theorem append_memcpy_contract_when_growing : forall fixed es h s src num,
  0 < es -> wf_slice es h s -> src_ok h src (num * es) -> scap s < slen s + num ->
  snd (slice_append_gen fixed es h s src num) = false.
Proof. exact append_grow_no_overlap. Qed.
Print Assumptions append_memcpy_contract_when_growing.

Theorem append_memcpy_contract_unfixed_refuted :
  exists es h s src num, 0 < es /\ wf_slice es h s /\ src_ok h src (num * es) /\
    slen s + num <= scap s /\ snd (slice_append_gen false es h s src num) = true.
Proof.
  (* insert idiom: append(x[:2], x[1:3]...) on a block of 8 bytes *)
  exists 1, [[]; [1; 2; 3; 0; 0; 0; 0; 0]], (mkS (mkP 1 0) 2 8), (SrcPtr (mkP 1 1)), 2.
  unfold wf_slice, fits, src_ok, fits. cbn. intuition lia.
Qed.
Print Assumptions append_memcpy_contract_unfixed_refuted.

(* growth: the new capacity holds the request, for every request below 2^63
   (wrap-around of the 64-bit arithmetic included) *)
Theorem nextslicecap_ge : forall newLen oldCap,
  0 <= oldCap < 2 ^ 63 -> 0 < newLen < 2 ^ 63 -> newLen <= nextslicecap newLen oldCap.
Proof. exact Proofs.nextslicecap_ge. Qed.
Print Assumptions nextslicecap_ge.

(* the 1.25x loop ends within the model's fuel for every request up to 2^62
   (partial: between 2^62 and 2^63 the Go code itself relies on wrap-around) *)
Theorem nextslicecap_fuel_enough_partial : forall newLen oldCap,
  256 <= oldCap < newLen -> newLen <= 2 ^ 62 -> cap_loop cap_fuel oldCap newLen <> None.
Proof.
  intros n c Hc Hn. apply cap_loop_fuel; auto.
  apply Z.le_trans with (2 ^ 62 * 4 ^ 256); [apply Z.mul_le_mono_nonneg_r; [apply Z.pow_nonneg|]; lia|].
  apply Z.le_trans with (256 * 5 ^ 256); [|apply Z.mul_le_mono_nonneg_r; [apply Z.pow_nonneg|]; lia].
  now vm_compute.
Qed.
Print Assumptions nextslicecap_fuel_enough_partial.

Example nextslicecap_values :
  nextslicecap 5 4 = 8 /\ nextslicecap 9 4 = 9 /\ nextslicecap 257 256 = 512 /\ nextslicecap 301 300 = 567
  /\ nextslicecap 256 255 = 510.
Proof. repeat split; reflexivity. Qed.

(* copy: min(len(dst), num) elements; afterwards dst holds the source bytes as
   they were before the call, also when the ranges overlap (= copy through a
   temporary); nothing else changes.  es = 0 allowed. *)
Theorem copy_overlap_spec : forall es h dst src num h' n,
  0 <= es -> 0 <= num -> wf_slice es h dst -> src_ok h src (num * es) ->
  slice_copy es h dst src num = (h', n) ->
  n = Z.min (slen dst) num
  /\ rd h' (sdata dst) (n * es) = src_read h src (n * es)
  /\ (forall i d, (Z.of_nat i < poff (sdata dst) \/ poff (sdata dst) + n * es <= Z.of_nat i) ->
        nth i (blk h' (pid (sdata dst))) d = nth i (blk h (pid (sdata dst))) d)
  /\ (forall id, id <> pid (sdata dst) -> blk h' id = blk h id)
  /\ length h' = length h.
Proof. exact copy_spec_lemma. Qed.
Print Assumptions copy_overlap_spec.

Example copy_nontrivial :   (* copy(x[1:], x) on 5 bytes *)
  slice_copy 1 [[]; [1; 2; 3; 4; 5]] (mkS (mkP 1 1) 4 4) (SrcPtr (mkP 1 0)) 5
  = ([[]; [1; 1; 2; 3; 4]], 4).
Proof. reflexivity. Qed.

(* slice expressions s[i:j:k]: in range gives len j-i, cap k-i and the window
   that starts i elements into the operand; out of range panics *)
Theorem reslice_window : forall es h base cap i j k,
  0 <= es -> 0 <= poff base -> 0 <= i <= j -> j <= k <= cap ->
  exists r, new_slice3 base es cap i j k = Ok r /\ slen r = j - i /\ scap r = k - i
    /\ rd h (sdata r) ((k - i) * es) = skipn (Z.to_nat (i * es)) (rd h base (k * es))
    /\ (wf_slice es h (mkS base 0 cap) -> wf_slice es h r).
Proof. exact reslice_ok_lemma. Qed.
Print Assumptions reslice_window.

Theorem reslice_out_of_range_panics : forall es base cap i j k,
  ~ (0 <= i <= j /\ j <= k <= cap) -> exists c x y, new_slice3 base es cap i j k = Panic c x y.
Proof. exact reslice_panic_lemma. Qed.
Print Assumptions reslice_out_of_range_panics.

(* clear zeroes exactly the len elements *)
Theorem clear_spec : forall es h s,
  0 <= es -> slen s < 2 ^ 63 -> wf_slice es h s ->
  let h' := slice_clear es h s in
  rd h' (sdata s) (slen s * es) = repeat 0 (Z.to_nat (slen s * es))
  /\ (forall i d, (Z.of_nat i < poff (sdata s) \/ poff (sdata s) + slen s * es <= Z.of_nat i) ->
        nth i (blk h' (pid (sdata s))) d = nth i (blk h (pid (sdata s))) d)
  /\ (forall id, id <> pid (sdata s) -> blk h' id = blk h id).
Proof. exact clear_spec_lemma. Qed.
Print Assumptions clear_spec.

(* UTF-8.  decoderune's switch (masks and shifts) computes, on every byte
   string whose first byte is not ASCII, exactly what the table of well-formed
   byte sequences of the Unicode standard (spec_decode: ranges and arithmetic)
   prescribes; anything that is not a well-formed sequence gives (U+FFFD, 1). *)
Theorem decoderune_eq_spec : forall s,
  Forall is_byte s -> (forall b t, s = b :: t -> 128 <= b) ->
  dec_at s = match spec_decode s with Some rw => rw | None => (runeError, 1) end.
Proof. intros [|b t] _ Hhd; [reflexivity|]. apply dec_at_cons. now apply (Hhd b t). Qed.
Print Assumptions decoderune_eq_spec.

Theorem invalid_to_runeerror : forall s,
  Forall is_byte s -> (forall b t, s = b :: t -> 128 <= b) ->
  spec_decode s = None -> dec_at s = (runeError, 1).
Proof. intros s HB Hhd N. rewrite decoderune_eq_spec by auto. now rewrite N. Qed.
Print Assumptions invalid_to_runeerror.

Example decode_examples :
  dec_at [226; 130; 172] = (8364, 3)            (* euro sign *)
  /\ dec_at [237; 160; 128] = (65533, 1)          (* surrogate *)
  /\ dec_at [224; 128; 128] = (65533, 1)          (* overlong *)
  /\ dec_at [244; 144; 128; 128] = (65533, 1)     (* above U+10FFFF *)
  /\ dec_at [240; 159; 152] = (65533, 1)          (* truncated *)
  /\ spec_decode [237; 160; 128] = None.
Proof. repeat split; reflexivity. Qed.

(* encoderune writes the standard encoding of every scalar value and the
   encoding of U+FFFD for every other int32 *)
Theorem encoderune_eq_spec : forall r, scalar r = true -> encoderune r = spec_encode r.
Proof. exact encoderune_scalar. Qed.
Print Assumptions encoderune_eq_spec.

Theorem encoderune_invalid_is_runeerror : forall r,
  - 2 ^ 31 <= r < 2 ^ 31 -> scalar r = false -> encoderune r = [239; 191; 189].
Proof. exact encoderune_invalid. Qed.
Print Assumptions encoderune_invalid_is_runeerror.

(* decode after encode, for every scalar value, whatever bytes follow *)
Theorem decode_encode : forall r t, scalar r = true -> 128 <= r -> Forall is_byte t ->
  dec_at (encoderune r ++ t) = (r, Z.of_nat (length (encoderune r))).
Proof. intros r t S G _. now apply dec_at_encode. Qed.
Print Assumptions decode_encode.

Theorem spec_decode_encode : forall r t, scalar r = true ->
  spec_decode (spec_encode r ++ t) = Some (r, Z.of_nat (length (spec_encode r))).
Proof. exact StrProofs.spec_decode_encode. Qed.
Print Assumptions spec_decode_encode.

(* []rune(string(rs)) = rs for every list of scalar values; hence
   string([]rune(s)) = s for every s that is the encoding of scalar values *)
Theorem runes_roundtrip : forall rs, Forall (fun r => scalar r = true) rs ->
  string_to_runes (string_from_runes rs) = rs.
Proof. exact runes_roundtrip_lemma. Qed.
Print Assumptions runes_roundtrip.

Theorem runes_roundtrip_valid : forall s rs, Forall (fun r => scalar r = true) rs ->
  s = string_from_runes rs -> string_from_runes (string_to_runes s) = s.
Proof. intros s rs H ->. now rewrite runes_roundtrip_lemma. Qed.
Print Assumptions runes_roundtrip_valid.

Example runes_nontrivial :
  string_to_runes [97; 226; 130; 172; 255; 240; 159; 152; 128; 237; 160; 128]
  = [97; 8364; 65533; 128512; 65533; 65533; 65533].
Proof. reflexivity. Qed.

(* range over a string: for EVERY byte string (valid or not) the indexes are
   the start positions of consecutive pieces of 1..4 bytes that cover the
   string exactly (no byte skipped, none visited twice, no index past the end) *)
Theorem iter_covers_string : forall s,
  exists ws, map fst (string_iter s) = starts 0 ws
             /\ Forall (fun w => 1 <= w <= 4) ws /\ zsum ws = Z.of_nat (length s).
Proof. intros s. rewrite string_iter_suf. apply iter_suf_partition. auto. Qed.
Print Assumptions iter_covers_string.

Theorem less_is_lex : forall x y, string_less x y = true <-> lex_lt x y.
Proof. exact string_less_iff. Qed.
Print Assumptions less_is_lex.

Theorem equal_iff : forall x y, string_equal x y = true <-> x = y.
Proof.
  intros x y. unfold string_equal. destruct (Z.eqb_spec (Z.of_nat (length x)) (Z.of_nat (length y))).
  - apply eq_loop_iff. lia.
  - split; [discriminate|]. intros ->. lia.
Qed.
Print Assumptions equal_iff.

(* StringCat through the memory model (uninitialised block, two memcpy) *)
Theorem cat_is_app : forall a b, string_cat a b = a ++ b.
Proof. exact string_cat_app. Qed.
Print Assumptions cat_is_app.

Theorem string_slice_window : forall s i j, 0 <= i <= j -> j <= Z.of_nat (length s) ->
  string_slice s i j = Some (firstn (Z.to_nat (j - i)) (skipn (Z.to_nat i) s)).
Proof. exact string_slice_ok. Qed.
Print Assumptions string_slice_window.

Theorem string_slice_out_of_range : forall s i j,
  ~ (0 <= i <= j /\ j <= Z.of_nat (length s)) -> string_slice s i j = None.
Proof.
  intros s i j N. unfold string_slice.
  destruct (Z.ltb_spec i 0); auto. destruct (Z.ltb_spec j i); auto.
  destruct (Z.ltb_spec (Z.of_nat (length s)) j); auto. lia.
Qed.
Print Assumptions string_slice_out_of_range.

(* string(i) for integers: the encoding of i when i is a scalar value, the
   encoding of U+FFFD for every other 64-bit value *)
Theorem fromint_range : forall r,
  string_from_int64 r = if scalar r then spec_encode r else [239; 191; 189].
Proof.
  intros r. unfold string_from_int64, string_from_rune.
  destruct (Z.ltb_spec r 0); [|destruct (Z.ltb_spec maxRune r)]; cbn [orb].
  - unfold scalar. destruct (Z.leb_spec 0 r); try lia. reflexivity.
  - unfold scalar. destruct (Z.leb_spec r maxRune); try lia. rewrite andb_false_r. reflexivity.
  - destruct (scalar r) eqn:S; [now apply encoderune_scalar|].
    apply encoderune_invalid; auto. unfold maxRune in *. change (2 ^ 31) with 2147483648. lia.
Qed.
Print Assumptions fromint_range.

Theorem fromuint_range : forall r, 0 <= r ->
  string_from_uint64 r = if scalar r then spec_encode r else [239; 191; 189].
Proof.
  intros r Hr. unfold string_from_uint64, string_from_rune.
  destruct (Z.ltb_spec maxRune r).
  - unfold scalar. destruct (Z.leb_spec r maxRune); try lia. rewrite andb_false_r. reflexivity.
  - destruct (scalar r) eqn:S; [now apply encoderune_scalar|].
    apply encoderune_invalid; auto. unfold maxRune in *. change (2 ^ 31) with 2147483648. lia.
Qed.
Print Assumptions fromuint_range.
