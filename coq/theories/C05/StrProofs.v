(* C05 - lemmas about the string model (StrModel.v).  The spine: [dec_at_cons],
   decoderune's switch equals the table of well-formed UTF-8 on every input with
   a non-ASCII head, proved per lead-byte class ([dec2/3/4] from the assembled
   value [runeN] and the range check [validN]); the relation [utf8] ties
   [spec_encode] to [spec_decode] ([spec_encode_wf], [spec_decode_wf]), and the
   round trips and the range-over-string theorems follow from these. *)
From LLGoV Require Import C05.Model C05.StrModel C05.Proofs.
Local Open Scope Z_scope.

Lemma land_disjoint a n c : 0 <= n -> 0 <= c < 2 ^ n -> Z.land (a * 2 ^ n) c = 0.
Proof.
  intros Hn Hc. apply Z.bits_inj'. intros i Hi. rewrite Z.land_spec, Z.bits_0.
  destruct (Z.lt_ge_cases i n).
  - now rewrite Z.mul_pow2_bits_low.
  - rewrite <- (Z.mod_small c (2 ^ n)), Z.mod_pow2_bits_high by lia. apply andb_false_r.
Qed.

Lemma lor_const_add k n c : 0 <= n -> 0 <= c < 2 ^ n -> Z.lor (k * 2 ^ n) c = k * 2 ^ n + c.
Proof.
  intros Hn Hc. pose proof (land_disjoint k n c Hn Hc) as D.
  rewrite (Z.add_nocarry_lxor _ _ D). symmetry. now apply Z.lxor_lor.
Qed.

Definition bytes256 : list Z := map Z.of_nat (seq 0 256).

Lemma sweep (P : Z -> bool) : forallb P bytes256 = true -> forall b, 0 <= b < 256 -> P b = true.
Proof.
  intros H b Hb. eapply forallb_forall in H; eauto.
  apply in_map_iff. exists (Z.to_nat b). split; [lia|]. apply in_seq. lia.
Qed.

(* each mask is 2^n - 1 *)
Lemma masks b : 0 <= b < 256 ->
  Z.land b maskx = b mod 64 /\ Z.land b mask2 = b mod 32 /\ Z.land b mask3 = b mod 16 /\ Z.land b mask4 = b mod 8.
Proof.
  intros _. repeat split;
    [apply (Z.land_ones b 6)|apply (Z.land_ones b 5)|apply (Z.land_ones b 4)|apply (Z.land_ones b 3)]; lia.
Qed.

Lemma mod_sub b k q : 0 < k -> q * k <= b < (q + 1) * k -> b mod k = b - q * k.
Proof. intros Hk Hb. symmetry. apply (Z.mod_unique_pos b k q (b - q * k)); lia. Qed.

Lemma acc_cont a b : Z.lor (Z.shiftl a 6) (Z.land b maskx) = a * 64 + b mod 64.
Proof.
  change maskx with (Z.ones 6). rewrite Z.land_ones, Z.shiftl_mul_pow2 by lia.
  apply (lor_const_add a 6); [lia|]. apply (Z.mod_pos_bound b 64). lia.
Qed.

(* the decoder shifts every byte to its final place; Horner form adds them one at a time *)
Lemma shiftl_horner a c n : 0 <= n ->
  Z.lor (Z.shiftl a (6 + n)) (Z.shiftl c n) = Z.shiftl (Z.lor (Z.shiftl a 6) c) n.
Proof. intros. now rewrite Z.shiftl_lor, Z.shiftl_shiftl by lia. Qed.

Lemma cont_iff b : cont b = in_rng 128 191 b.
Proof. reflexivity. Qed.

Lemma cont_val b : cont b = true -> 128 <= b <= 191 /\ b mod 64 = b - 128.
Proof.
  unfold cont, locb, hicb. intros C. split; [lia|]. apply (mod_sub b 64 2); lia.
Qed.

Definition spec_dec (s : list Z) : Z * Z :=
  match spec_decode s with Some rw => rw | None => (runeError, 1) end.

Definition is_byte (b : Z) : Prop := 0 <= b < 256.

Lemma in_rng_spec lo hi b : BoolSpec (lo <= b <= hi) (b < lo \/ hi < b) (in_rng lo hi b).
Proof. unfold in_rng. destruct (Z.leb_spec lo b), (Z.leb_spec b hi); constructor; lia. Qed.

(* decides, by lia, every comparison of the goal that has [b] on one side *)
Ltac cases_on b :=
  repeat (match goal with
          | |- context [in_rng ?lo ?hi b] => destruct (in_rng_spec lo hi b)
          | |- context [Z.leb ?a b] => destruct (Z.leb_spec a b)
          | |- context [Z.leb b ?a] => destruct (Z.leb_spec b a)
          | |- context [Z.ltb ?a b] => destruct (Z.ltb_spec a b)
          | |- context [Z.ltb b ?a] => destruct (Z.ltb_spec b a)
          end; cbn [andb orb negb]; try lia).

(* For each length: the value the decoder assembles from a lead byte of that
   class and continuation bytes ([runeN]), and the table's conditions on the
   trail bytes as "all are continuation bytes and the value is in the range
   that needs this length" ([validN]). *)

Lemma rune2 b0 b1 : 192 <= b0 < 224 -> cont b1 = true ->
  Z.lor (Z.shiftl (Z.land b0 mask2) 6) (Z.land b1 maskx) = (b0 - 192) * 64 + (b1 - 128).
Proof.
  intros L C1. apply cont_val in C1 as (_ & V1). rewrite acc_cont, V1.
  change mask2 with (Z.ones 5). now rewrite Z.land_ones, (mod_sub b0 (2 ^ 5) 6) by (cbn; lia).
Qed.

Lemma valid2 b0 b1 : 192 <= b0 < 224 -> cont b1 = true ->
  (rune1Max <? (b0 - 192) * 64 + (b1 - 128)) = (194 <=? b0).
Proof. unfold cont, locb, hicb, rune1Max. lia. Qed.

Lemma dec2 b0 t : 192 <= b0 < 224 -> dec_at (b0 :: t) = spec_dec (b0 :: t).
Proof.
  intros L. unfold dec_at, spec_dec, spec_decode, t2, t3. destruct t as [|b1 t].
  - cases_on b0; reflexivity.
  - change (in_rng 128 191 b1) with (cont b1). destruct (cont b1) eqn:C1.
    + rewrite rune2 by auto. cbv zeta. rewrite valid2 by auto. cases_on b0; reflexivity.
    + cases_on b0; reflexivity.
Qed.

Lemma rune3 b0 b1 b2 : 224 <= b0 < 240 -> cont b1 = true -> cont b2 = true ->
  Z.lor (Z.lor (Z.shiftl (Z.land b0 mask3) 12) (Z.shiftl (Z.land b1 maskx) 6)) (Z.land b2 maskx)
  = (b0 - 224) * 4096 + (b1 - 128) * 64 + (b2 - 128).
Proof.
  intros L C1 C2. apply cont_val in C1 as (_ & V1), C2 as (_ & V2).
  rewrite (shiftl_horner _ _ 6), !acc_cont, V1, V2 by lia.
  change mask3 with (Z.ones 4). rewrite Z.land_ones, (mod_sub b0 (2 ^ 4) 14) by (cbn; lia). ring.
Qed.

Lemma valid3 b0 b1 b2 : 224 <= b0 < 240 ->
  let v := (b0 - 224) * 4096 + (b1 - 128) * 64 + (b2 - 128) in
  in_rng (if b0 =? 224 then 160 else 128) (if b0 =? 237 then 159 else 191) b1 && in_rng 128 191 b2
  = cont b1 && cont b2 && ((rune2Max <? v) && negb ((surrogateMin <=? v) && (v <=? surrogateMax))).
Proof.
  intros L v. subst v. unfold in_rng, cont, locb, hicb, rune2Max, surrogateMin, surrogateMax.
  destruct (b0 =? 224) eqn:E0, (b0 =? 237) eqn:E1; lia.
Qed.

Lemma dec3 b0 t : 224 <= b0 < 240 -> dec_at (b0 :: t) = spec_dec (b0 :: t).
Proof.
  intros L. unfold dec_at, spec_dec, spec_decode, t2, t3, t4. cases_on b0.
  destruct t as [|b1 [|b2 t]]; try reflexivity. cbv zeta. rewrite valid3 by lia.
  destruct (cont b1) eqn:C1, (cont b2) eqn:C2; try reflexivity.
  rewrite rune3 by auto. cbn [andb]. now destruct (_ && _).
Qed.
Lemma rune4 b0 b1 b2 b3 : 240 <= b0 < 248 -> cont b1 = true -> cont b2 = true -> cont b3 = true ->
  Z.lor (Z.lor (Z.lor (Z.shiftl (Z.land b0 mask4) 18) (Z.shiftl (Z.land b1 maskx) 12))
               (Z.shiftl (Z.land b2 maskx) 6)) (Z.land b3 maskx)
  = (b0 - 240) * 262144 + (b1 - 128) * 4096 + (b2 - 128) * 64 + (b3 - 128).
Proof.
  intros L C1 C2 C3. apply cont_val in C1 as (_ & V1), C2 as (_ & V2), C3 as (_ & V3).
  rewrite (shiftl_horner _ _ 12), (shiftl_horner _ _ 6), !acc_cont, V1, V2, V3 by lia.
  change mask4 with (Z.ones 3). rewrite Z.land_ones, (mod_sub b0 (2 ^ 3) 30) by (cbn; lia). ring.
Qed.

Lemma valid4 b0 b1 b2 b3 : 240 <= b0 <= 244 ->
  let v := (b0 - 240) * 262144 + (b1 - 128) * 4096 + (b2 - 128) * 64 + (b3 - 128) in
  in_rng (if b0 =? 240 then 144 else 128) (if b0 =? 244 then 143 else 191) b1
  && in_rng 128 191 b2 && in_rng 128 191 b3
  = cont b1 && cont b2 && cont b3 && ((rune3Max <? v) && (v <=? maxRune)).
Proof.
  intros L v. subst v. unfold in_rng, cont, locb, hicb, rune3Max, maxRune.
  destruct (b0 =? 240) eqn:E0, (b0 =? 244) eqn:E1; lia.
Qed.

Lemma over4 b0 b1 b2 b3 : 244 < b0 -> cont b1 = true -> cont b2 = true -> cont b3 = true ->
  ((b0 - 240) * 262144 + (b1 - 128) * 4096 + (b2 - 128) * 64 + (b3 - 128) <=? maxRune) = false.
Proof. unfold cont, locb, hicb, maxRune. lia. Qed.

Lemma dec4 b0 t : 240 <= b0 < 248 -> dec_at (b0 :: t) = spec_dec (b0 :: t).
Proof.
  intros L. unfold dec_at, spec_dec, spec_decode, t2, t3, t4, t5. cases_on b0.
  - (* b0 <= 244 *)
    destruct t as [|b1 [|b2 [|b3 t]]]; try reflexivity. cbv zeta. rewrite valid4 by lia.
    destruct (cont b1) eqn:C1, (cont b2) eqn:C2, (cont b3) eqn:C3; try reflexivity.
    rewrite rune4 by auto. cbn [andb]. now destruct (_ && _).
  - (* 244 < b0: above U+10FFFF whatever follows *)
    destruct t as [|b1 [|b2 [|b3 t]]]; try reflexivity. cbv zeta.
    destruct (cont b1) eqn:C1, (cont b2) eqn:C2, (cont b3) eqn:C3; try reflexivity.
    rewrite rune4 by auto. cbn [andb]. now rewrite over4, andb_false_r by (auto; lia).
Qed.

(* decoderune's switch agrees with the table of well-formed sequences on every
   list of integers whose head is not ASCII (its documented precondition) *)
Lemma dec_at_cons b0 t : 128 <= b0 -> dec_at (b0 :: t) = spec_dec (b0 :: t).
Proof.
  intros H. destruct (Z.lt_ge_cases b0 192) as [L192|G192].
  - (* a continuation byte in lead position *)
    unfold dec_at, spec_dec, spec_decode, t2, t3, t4, t5; cases_on b0; reflexivity.
  - destruct (Z.lt_ge_cases b0 224); [now apply dec2|].
    destruct (Z.lt_ge_cases b0 240); [now apply dec3|].
    destruct (Z.lt_ge_cases b0 248); [now apply dec4|].
    (* 248 and above is no lead byte *)
    unfold dec_at, spec_dec, spec_decode, t2, t3, t4, t5; cases_on b0; reflexivity.
Qed.

Lemma enc_cont x : Z.lor tx (Z.land (byte x) maskx) = 128 + x mod 64.
Proof.
  change maskx with (Z.ones 6). rewrite Z.land_ones by lia. unfold byte.
  rewrite <- (Znumtheory.Zmod_div_mod 64 256) by (try lia; now exists 4).
  apply (lor_const_add 2 6); [lia|]. apply (Z.mod_pos_bound x 64). lia.
Qed.

Lemma enc_lead k n x : 0 <= n <= 8 -> 0 <= x < 2 ^ n -> Z.lor (k * 2 ^ n) (byte x) = k * 2 ^ n + x.
Proof.
  intros Hn Hx. unfold byte. rewrite Z.mod_small; [apply lor_const_add; lia|].
  assert (2 ^ n <= 2 ^ 8) by (apply Z.pow_le_mono_r; lia). change (2 ^ 8) with 256 in *. lia.
Qed.

Lemma div_range r k n : 0 < k -> 0 <= r < k * n -> 0 <= r / k < n.
Proof. split; [apply Z.div_pos|apply Z.div_lt_upper_bound]; lia. Qed.

Lemma scalar_range r : scalar r = true -> 0 <= r <= 1114111 /\ (r < 55296 \/ 57343 < r).
Proof. unfold scalar, maxRune, surrogateMin, surrogateMax. lia. Qed.

Lemma encoderune_scalar r : scalar r = true -> encoderune r = spec_encode r.
Proof.
  intros S. destruct (scalar_range r S) as (R & Hs).
  unfold encoderune, spec_encode, u32. rewrite (Z.mod_small r) by (change (2 ^ 32) with 4294967296; lia).
  rewrite !enc_cont, !Z.shiftr_div_pow2 by lia.
  change (2 ^ 6) with 64. change (2 ^ 12) with 4096. change (2 ^ 18) with 262144.
  unfold rune1Max, rune2Max, rune3Max, maxRune, surrogateMin, surrogateMax.
  replace (r <=? 127) with (r <? 128) by lia. replace (r <=? 2047) with (r <? 2048) by lia.
  replace (r <=? 65535) with (r <? 65536) by lia. replace ((1114111 <? r) || _) with false by lia.
  destruct (r <? 128) eqn:L1; [|destruct (r <? 2048) eqn:L2; [|destruct (r <? 65536) eqn:L3]].
  - unfold byte. now rewrite Z.mod_small by lia.
  - now rewrite (enc_lead 6 5) by (try apply div_range; lia).
  - now rewrite (enc_lead 14 4) by (try apply div_range; lia).
  - now rewrite (enc_lead 30 3) by (try apply div_range; lia).
Qed.

Lemma encoderune_invalid r : - 2 ^ 31 <= r < 2 ^ 31 -> scalar r = false -> encoderune r = [239; 191; 189].
Proof.
  change (2 ^ 31) with 2147483648. intros R S.
  unfold scalar, maxRune, surrogateMin, surrogateMax in S.
  unfold encoderune, u32, rune1Max, rune2Max, rune3Max, maxRune, surrogateMin, surrogateMax.
  change (2 ^ 32) with 4294967296.
  replace (r mod 4294967296) with (if r <? 0 then r + 4294967296 else r)
    by (destruct (Z.ltb_spec r 0); Z.div_mod_to_equations; lia).
  destruct (Z.ltb_spec r 0); [cases_on (r + 4294967296)|cases_on r]; reflexivity.
Qed.

(* bs is the UTF-8 sequence of the scalar value r: the lead byte carries the
   high bits, every continuation byte six more; shortest form, no surrogates *)
Inductive utf8 : Z -> list Z -> Prop :=
| utf8_1 r : 0 <= r < 128 -> utf8 r [r]
| utf8_2 r a b : r = a * 64 + b -> 0 <= b < 64 -> 128 <= r < 2048 -> utf8 r [192 + a; 128 + b]
| utf8_3 r a b c : r = (a * 64 + b) * 64 + c -> 0 <= b < 64 -> 0 <= c < 64 ->
    2048 <= r < 65536 -> r < 55296 \/ 57343 < r -> utf8 r [224 + a; 128 + b; 128 + c]
| utf8_4 r a b c d : r = ((a * 64 + b) * 64 + c) * 64 + d -> 0 <= b < 64 -> 0 <= c < 64 -> 0 <= d < 64 ->
    65536 <= r <= 1114111 -> utf8 r [240 + a; 128 + b; 128 + c; 128 + d].

Lemma spec_encode_wf r : scalar r = true -> utf8 r (spec_encode r).
Proof.
  intros S. destruct (scalar_range r S) as (R & Hs). unfold spec_encode.
  destruct (r <? 128) eqn:L1; [|destruct (r <? 2048) eqn:L2; [|destruct (r <? 65536) eqn:L3]].
  - apply utf8_1; lia.
  - apply utf8_2; Z.div_mod_to_equations; lia.
  - apply utf8_3; Z.div_mod_to_equations; lia.
  - apply utf8_4; Z.div_mod_to_equations; lia.
Qed.

Lemma spec_decode_wf r bs t : utf8 r bs -> spec_decode (bs ++ t) = Some (r, Z.of_nat (length bs)).
Proof.
  destruct 1; cbn [app length]; unfold spec_decode.
  - cases_on r. reflexivity.
  - cases_on (192 + a); cases_on (128 + b). f_equal; f_equal; lia.
  - cases_on (224 + a). cbv zeta. rewrite valid3 by lia.
    replace (cont _ && _ && _) with true
      by (unfold cont, locb, hicb, rune2Max, surrogateMin, surrogateMax; lia).
    f_equal; f_equal; lia.
  - cases_on (240 + a). cbv zeta. rewrite valid4 by lia.
    replace (cont _ && _ && _ && _) with true by (unfold cont, locb, hicb, rune3Max, maxRune; lia).
    f_equal; f_equal; lia.
Qed.

Lemma utf8_bytes r bs : utf8 r bs -> Forall is_byte bs.
Proof. unfold is_byte. destruct 1; repeat constructor; lia. Qed.

Lemma utf8_head r bs : utf8 r bs -> exists b t, bs = b :: t /\ (128 <= r -> 128 <= b).
Proof. destruct 1; eexists _, _; (split; [reflexivity|lia]). Qed.

Lemma dec_at_utf8 r bs t : utf8 r bs -> 128 <= r -> dec_at (bs ++ t) = (r, Z.of_nat (length bs)).
Proof.
  intros U G. pose proof (spec_decode_wf r bs t U) as D.
  destruct (utf8_head r bs U) as (b & t' & -> & Hb). cbn [app] in *.
  rewrite dec_at_cons by auto. unfold spec_dec. now rewrite D.
Qed.

Lemma spec_encode_bytes r : scalar r = true -> Forall is_byte (spec_encode r).
Proof. intros S. eapply utf8_bytes, spec_encode_wf, S. Qed.

Lemma spec_decode_encode r t : scalar r = true ->
  spec_decode (spec_encode r ++ t) = Some (r, Z.of_nat (length (spec_encode r))).
Proof. intros S. apply spec_decode_wf, spec_encode_wf, S. Qed.

Lemma dec_at_encode r t : scalar r = true -> 128 <= r ->
  dec_at (encoderune r ++ t) = (r, Z.of_nat (length (encoderune r))).
Proof. intros S G. rewrite encoderune_scalar by auto. apply dec_at_utf8; auto using spec_encode_wf. Qed.

Lemma dec_at_width s : 1 <= snd (dec_at s) <= 4 /\ (s <> [] -> snd (dec_at s) <= Z.of_nat (length s)).
Proof.
  (* every path through the switch: it returns width 1, or width n on a branch
     that is only reached when n bytes are present *)
  unfold dec_at. destruct s as [|b0 [|b1 [|b2 [|b3 t]]]]; cbv zeta;
    repeat match goal with |- context [if ?b then _ else _] => destruct b end;
    cbn [snd length]; (split; [lia|intros N; first [lia | exfalso; apply N; reflexivity]]).
Qed.

(* the same loop on the remaining suffix *)
Fixpoint iter_suf (fuel : nat) (suf : list Z) (k : Z) : list (Z * Z) :=
  match fuel with
  | O => []
  | S f =>
    match suf with
    | [] => []
    | c :: _ =>
      if c <? runeSelf then (k, c) :: iter_suf f (skipn 1 suf) (k + 1)
      else (k, fst (dec_at suf)) :: iter_suf f (skipn (Z.to_nat (snd (dec_at suf))) suf) (k + snd (dec_at suf))
    end
  end.

Lemma skipn_nth_cons {A} (l : list A) n d : (n < length l)%nat -> skipn n l = nth n l d :: skipn (S n) l.
Proof.
  revert n; induction l as [|x l IH]; intros [|n]; cbn [length skipn nth]; intros; try lia; auto.
  apply IH. lia.
Qed.

Lemma iter_from_suf fuel : forall s pos, 0 <= pos ->
  iter_from fuel s pos = iter_suf fuel (skipn (Z.to_nat pos) s) pos.
Proof.
  induction fuel as [|f IH]; intros s pos Hpos; cbn [iter_from iter_suf]; auto.
  destruct (Z.leb_spec (Z.of_nat (length s)) pos) as [Hge|Hlt].
  - rewrite skipn_all2 by lia. reflexivity.
  - rewrite (skipn_nth_cons s (Z.to_nat pos) 0) by lia.
    rewrite <- (skipn_nth_cons s (Z.to_nat pos) 0) by lia.
    destruct (nth (Z.to_nat pos) s 0 <? runeSelf).
    + rewrite IH by lia. rewrite skipn_skipn_add. do 2 f_equal. f_equal. lia.
    + unfold decoderune. destruct (Z.leb_spec (Z.of_nat (length s)) pos); try lia.
      destruct (dec_at (skipn (Z.to_nat pos) s)) as [v w] eqn:E. cbn [fst snd].
      pose proof (dec_at_width (skipn (Z.to_nat pos) s)) as (W & _). rewrite E in W; cbn [snd] in W.
      rewrite IH by lia. rewrite skipn_skipn_add. do 2 f_equal. f_equal. lia.
Qed.

Lemma string_iter_suf s : string_iter s = iter_suf (length s) s 0.
Proof. unfold string_iter. now rewrite iter_from_suf by lia. Qed.

Lemma from_runes_bytes rs : Forall (fun r => scalar r = true) rs -> Forall is_byte (string_from_runes rs).
Proof.
  induction 1 as [|r rs S _ IH]; cbn; [constructor|].
  apply Forall_app. split; auto. rewrite encoderune_scalar by auto. now apply spec_encode_bytes.
Qed.

Lemma iter_suf_utf8 f r bs rest k : utf8 r bs ->
  iter_suf (S f) (bs ++ rest) k = (k, r) :: iter_suf f rest (k + Z.of_nat (length bs)).
Proof.
  intros U. destruct (Z.lt_ge_cases r 128) as [Hlow|Hhigh].
  - destruct U; try lia. cbn [app iter_suf]. unfold runeSelf. now destruct (Z.ltb_spec r 128); try lia.
  - pose proof (dec_at_utf8 r bs rest U Hhigh) as D.
    destruct (utf8_head r bs U) as (c & t & E & Hc). specialize (Hc Hhigh).
    cbn [iter_suf]. rewrite E at 1. cbn [app]. unfold runeSelf. destruct (Z.ltb_spec c 128); try lia.
    rewrite D. cbn [fst snd]. now rewrite Nat2Z.id, skipn_app, skipn_all, Nat.sub_diag.
Qed.

Lemma iter_suf_runes rs : Forall (fun r => scalar r = true) rs ->
  forall fuel k, (length rs <= fuel)%nat -> map snd (iter_suf fuel (string_from_runes rs) k) = rs.
Proof.
  induction 1 as [|r rs S HS IH]; intros fuel k Hf.
  - destruct fuel; reflexivity.
  - destruct fuel as [|f]; [cbn in Hf; lia|]. cbn [length] in Hf.
    change (string_from_runes (r :: rs)) with (encoderune r ++ string_from_runes rs).
    rewrite encoderune_scalar, (iter_suf_utf8 f r) by auto using spec_encode_wf.
    cbn [map snd]. f_equal. apply IH. lia.
Qed.

Lemma from_runes_length rs : (length rs <= length (string_from_runes rs))%nat.
Proof.
  induction rs as [|r rs IH]; [cbn; lia|].
  change (string_from_runes (r :: rs)) with (encoderune r ++ string_from_runes rs).
  rewrite app_length. cbn [length].
  assert (1 <= length (encoderune r))%nat; [|lia].
  unfold encoderune. cbv zeta.
  repeat match goal with |- context [if ?b then _ else _] => destruct b end; cbn [length]; lia.
Qed.

Lemma runes_roundtrip_lemma rs : Forall (fun r => scalar r = true) rs ->
  string_to_runes (string_from_runes rs) = rs.
Proof.
  intros H. unfold string_to_runes. rewrite string_iter_suf. apply iter_suf_runes; auto.
  apply from_runes_length.
Qed.

(* the start indexes of consecutive pieces of widths ws *)
Fixpoint starts (k : Z) (ws : list Z) : list Z :=
  match ws with [] => [] | w :: t => k :: starts (k + w) t end.
Definition zsum (ws : list Z) : Z := fold_right Z.add 0 ws.

Lemma iter_suf_partition fuel : forall suf k, (length suf <= fuel)%nat ->
  exists ws, map fst (iter_suf fuel suf k) = starts k ws
             /\ Forall (fun w => 1 <= w <= 4) ws /\ zsum ws = Z.of_nat (length suf).
Proof.
  induction fuel as [|f IH]; intros suf k Hf.
  - destruct suf; [|cbn in Hf; lia]. exists []. repeat split; auto.
  - destruct suf as [|c t]; [exists []; repeat split; auto|].
    cbn [iter_suf]. destruct (c <? runeSelf).
    + destruct (IH t (k + 1)) as (ws & E & F & Z0); [cbn in Hf; lia|].
      exists (1 :: ws). cbn [skipn map fst starts zsum fold_right]. rewrite E. repeat split; auto.
      * constructor; auto; lia.
      * fold (zsum ws). rewrite Z0. cbn [length]. lia.
    + pose proof (dec_at_width (c :: t)) as (W & WL). specialize (WL ltac:(discriminate)).
      set (w := snd (dec_at (c :: t))) in *.
      destruct (IH (skipn (Z.to_nat w) (c :: t)) (k + w)) as (ws & E & F & Z0).
      { rewrite skipn_length. cbn [length] in *. lia. }
      exists (w :: ws). cbn [map fst starts zsum fold_right]. rewrite E. repeat split; auto.
      fold (zsum ws). rewrite Z0, skipn_length. lia.
Qed.

Lemma eq_loop_iff x : forall y, length x = length y -> (eq_loop x y = true <-> x = y).
Proof.
  induction x as [|a x IH]; intros [|b y] L; cbn in L |- *; try lia; try tauto.
  destruct (Z.eqb_spec a b).
  - subst. rewrite IH by lia. split; [intros ->; auto|intros [= ->]; auto].
  - split; [discriminate|intros [= ? ?]; contradiction].
Qed.

Inductive lex_lt : list Z -> list Z -> Prop :=
| lex_nil y ys : lex_lt [] (y :: ys)
| lex_hd x y xs ys : x < y -> lex_lt (x :: xs) (y :: ys)
| lex_tl x xs ys : lex_lt xs ys -> lex_lt (x :: xs) (x :: ys).

Lemma string_less_iff x : forall y, string_less x y = true <-> lex_lt x y.
Proof.
  induction x as [|a x IH]; intros [|b y]; cbn.
  - split; [discriminate|inversion 1].
  - split; [constructor|auto].
  - split; [discriminate|inversion 1].
  - destruct (Z.ltb_spec a b).
    + split; [intros _; now constructor|auto].
    + destruct (Z.ltb_spec b a).
      * split; [discriminate|]. inversion 1; subst; lia.
      * assert (a = b) by lia. subst. rewrite IH. split; [now constructor|].
        inversion 1; subst; auto; lia.
Qed.

Lemma string_cat_app a b : string_cat a b = a ++ b.
Proof.
  unfold string_cat, alloc_u, heap0, memcpy, memmove. cbn [src_read app length].
  rewrite !Nat2Z.id, !firstn_all.
  set (p := mkP 1 0). set (h1 := [[]; _]).
  assert (F : forall k n, 0 <= k -> k + n <= Z.of_nat (length a) + Z.of_nat (length b) ->
                          fits h1 (advance p k) n).
  { intros k n Hk Hn. unfold fits, h1, blk; cbn. rewrite repeat_length. lia. }
  rewrite rd_wr_advance; [|lia|cbn; lia|apply fits_wr, F; lia]. f_equal.
  apply rd_wr_same, (F 0); lia.
Qed.

Lemma string_slice_ok s i j : 0 <= i <= j -> j <= Z.of_nat (length s) ->
  string_slice s i j = Some (firstn (Z.to_nat (j - i)) (skipn (Z.to_nat i) s)).
Proof.
  intros Hi Hj. unfold string_slice.
  destruct (Z.ltb_spec i 0); try lia. destruct (Z.ltb_spec j i); try lia.
  destruct (Z.ltb_spec (Z.of_nat (length s)) j); try lia. cbn [orb].
  destruct (Z.ltb_spec i (Z.of_nat (length s))); auto.
  rewrite skipn_all2 by lia. now rewrite firstn_nil.
Qed.
