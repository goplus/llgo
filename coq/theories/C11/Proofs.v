(* C11 - proofs about the machines of C11/Model.v (semaphore, notify list, atomic.Value): for each,
   an invariant that every step preserves and hence, by [Lib.Common.run_invariant], every schedule; and what
   the boolean checks of the sync/atomic lowering table mean. *)
From LLGoV Require Import Lib.Common C11.Model.
Local Open Scope N_scope.

Lemma Forall_upd {A} (P : A -> Prop) l i x : Forall P l -> P x -> Forall P (upd l i x).
Proof. intros H Hx. revert i. induction H; destruct i; cbn; auto. Qed.

Lemma length_upd {A} (l : list A) i x : length (upd l i x) = length l.
Proof. revert i; induction l; destruct i; cbn; auto. Qed.

Lemma nth_error_upd_same {A} (l : list A) i x : (i < length l)%nat -> nth_error (upd l i x) i = Some x.
Proof. revert i; induction l; destruct i; cbn; intros; try lia; auto. apply IHl. lia. Qed.

Lemma mem_remove_nat t x q : mem_nat t (remove_nat x q) = true -> mem_nat t q = true.
Proof.
  unfold mem_nat. induction q as [|y q IH]; cbn; auto.
  destruct (Nat.eqb y x); cbn.
  - intros ->. now rewrite orb_true_r.
  - destruct (Nat.eqb t y); cbn; auto.
Qed.

Definition n_quiescent (s : nstate) : Prop :=
  forall t th, nth_error (n_ths s) t = Some th -> n_enabled s t th = false.
Definition s_quiescent (s : sstate) : Prop :=
  forall t th, nth_error (s_ths s) t = Some th -> s_enabled s t th = false.

Lemma s_step_inv s t c s' :
  s_step s (t, c) = Some s' ->
  exists th o rest, nth_error (s_ths s) t = Some th /\ sprog th = o :: rest /\
    (s_parked s t = true /\
     s' = mkSSt (s_val s) (s_waiters s) (s_mu s) (remove_nat t (s_waitq s)) (s_ths s) (s_acq s) (s_rel s) (s_wraps s)
     \/ s_parked s t = false /\ s' = s_exec s t c th o rest).
Proof.
  unfold s_step. destruct (nth_error (s_ths s) t) as [th|] eqn:E; [|discriminate].
  destruct (sprog th) as [|o rest] eqn:Ep; [discriminate|].
  destruct (s_parked s t).
  - intros [= <-]. exists th, o, rest. auto.
  - destruct (s_enabled s t th); [|discriminate]. intros [= <-]. exists th, o, rest. auto.
Qed.

(* a thread that is about to CompareAndSwap has loaded a non-zero value *)
Definition lv_ok (th : sthread) : Prop :=
  match s_pc th with QA1 | QA3 => s_lv th <> 0 | _ => True end.

Definition sinv (v0 : N) (s : sstate) : Prop :=
  s_val s < 4294967296 /\
  s_val s + s_acq s + 4294967296 * s_wraps s = v0 + s_rel s /\
  Forall lv_ok (s_ths s).

(* the two operations that move the count: a successful CompareAndSwap(v, v-1) of an acquire,
   and the AddUint32 of a release, which may overflow *)
Lemma count_after_cas v0 v a r w : v <> 0 -> v < 4294967296 ->
  v + a + 4294967296 * w = v0 + r ->
  dec32 v < 4294967296 /\ dec32 v + (a + 1) + 4294967296 * w = v0 + r.
Proof. intros Hz Hv Hc. unfold dec32. destruct (N.eqb_spec v 0); [contradiction | lia]. Qed.

Lemma count_after_add v0 v a r w : v < 4294967296 ->
  v + a + 4294967296 * w = v0 + r ->
  wrap (v + 1) < 4294967296 /\
  wrap (v + 1) + a + 4294967296 * (if v + 1 =? 4294967296 then w + 1 else w) = v0 + (r + 1).
Proof.
  intros Hv Hc. unfold wrap. destruct (N.eqb_spec (v + 1) 4294967296) as [E|E].
  - rewrite E, N.mod_same by discriminate. lia.
  - rewrite N.mod_small; [lia|]. apply N.le_neq. split; [|exact E].
    rewrite N.add_1_r. now apply N.le_succ_l.
Qed.

Lemma sinv_intro v0 s t th' v wt mu q a r w :
  v < 4294967296 -> v + a + 4294967296 * w = v0 + r -> Forall lv_ok (s_ths s) -> lv_ok th' ->
  sinv v0 (mkSSt v wt mu q (upd (s_ths s) t th') a r w).
Proof. intros Hv Hc HF H. exact (conj Hv (conj Hc (Forall_upd _ _ _ _ HF H))). Qed.

Lemma sinv_exec v0 s t c th o rest :
  sinv v0 s -> nth_error (s_ths s) t = Some th -> sinv v0 (s_exec s t c th o rest).
Proof.
  intros Hs Et. pose proof Hs as (Hv & Hc & HF).
  pose proof (Forall_nth_error _ _ _ _ HF Et) as Hlv. unfold lv_ok in Hlv.
  (* most steps leave the counters alone and move the thread to a pc without obligation *)
  unfold s_exec. destruct o, (s_pc th); try exact Hs;
    try (apply sinv_intro; trivial; exact I).
  - (* acquire, first Load: goes to the CAS only with a non-zero value *)
    apply sinv_intro; trivial.
    destruct (N.eqb_spec (s_val s) 0); [exact I | assumption].
  - (* fast-path CAS *)
    destruct (N.eqb_spec (s_val s) (s_lv th)) as [E|_]; [|apply sinv_intro; trivial; exact I].
    rewrite E in Hv, Hc. destruct (count_after_cas _ _ _ _ _ Hlv Hv Hc) as [Hv' Hc'].
    apply sinv_intro; trivial; exact I.
  - (* Load under the mutex *)
    destruct (N.eqb_spec (s_val s) 0); apply sinv_intro; trivial; exact I.
  - (* CAS under the mutex *)
    destruct (N.eqb_spec (s_val s) (s_lv th)) as [E|_]; [|apply sinv_intro; trivial; exact I].
    rewrite E in Hv, Hc. destruct (count_after_cas _ _ _ _ _ Hlv Hv Hc) as [Hv' Hc'].
    apply sinv_intro; trivial; exact I.
  - (* release: AddUint32 *)
    destruct (count_after_add _ _ _ _ _ Hv Hc) as [Hv' Hc'].
    apply sinv_intro; trivial; exact I.
  - (* release, under the mutex: Signal only if somebody waits *)
    destruct (s_waiters s =? 0); apply sinv_intro; trivial; exact I.
Qed.

Lemma sinv_step v0 s tc s' : sinv v0 s -> s_step s tc = Some s' -> sinv v0 s'.
Proof.
  destruct tc as [t c]. intros H E.
  apply s_step_inv in E as (th & o & rest & Et & _ & [[_ ->]|[_ ->]]); [exact H|].
  now apply sinv_exec.
Qed.

Lemma sinv_run v0 sc : forall s, sinv v0 s -> sinv v0 (s_run sc s).
Proof. apply (run_invariant s_step s_run); [reflexivity | reflexivity | apply sinv_step]. Qed.

Lemma sinv_init v0 progs : v0 < 4294967296 -> sinv v0 (s_init v0 progs).
Proof.
  intros H. split; [exact H|]. split; [cbn; lia|].
  cbn. rewrite Forall_map. apply Forall_forall. intros p _. exact I.
Qed.

Lemma s_exec_joins s t c th o rest t' :
  mem_nat t' (s_waitq (s_exec s t c th o rest)) = true ->
  mem_nat t' (s_waitq s) = true \/ t' = t /\ s_val s = 0.
Proof.
  unfold s_exec. destruct o, (s_pc th); auto.
  - destruct (s_val s =? s_lv th); auto.
  - destruct (N.eqb_spec (s_val s) 0) as [E|_]; [|auto].
    unfold s_park, mem_nat. cbn [s_waitq]. rewrite existsb_app, orb_true_iff. cbn.
    rewrite orb_false_r, Nat.eqb_eq. intros [H|H]; auto.
  - destruct (s_val s =? s_lv th); auto.
  - destruct (s_waiters s =? 0); auto.
  - destruct (s_waitq s); [auto|]. intros H. left. eapply mem_remove_nat, H.
Qed.

Lemma n_step_inv s t c s' :
  n_step s (t, c) = Some s' ->
  exists th o rest, nth_error (n_ths s) t = Some th /\ nprog th = o :: rest /\
    (n_ths s' = n_ths s \/ s' = n_exec s t c th o rest).
Proof.
  unfold n_step. destruct (nth_error (n_ths s) t) as [th|] eqn:E; [|discriminate].
  destruct (nprog th) as [|o rest] eqn:Ep; [discriminate|].
  destruct (n_parked s t).
  - intros [= <-]. exists th, o, rest. auto.
  - destruct (n_enabled s t th); [|discriminate]. intros [= <-]. exists th, o, rest. auto.
Qed.

Lemma n_step_exec s t c th o rest :
  nth_error (n_ths s) t = Some th -> nprog th = o :: rest -> n_parked s t = false ->
  match n_pc th with ML | MW => free (n_mu s) | _ => true end = true ->
  n_step s (t, c) = Some (n_exec s t c th o rest).
Proof. intros Et Ep Epk En. unfold n_step, n_enabled. now rewrite Et, Ep, Epk, En. Qed.

Definition rets_ok (th : nthread) : Prop :=
  Forall (fun p => less32 (fst p) (snd p) = true) (n_rets th).

Lemma rets_exec s t c th o rest :
  Forall rets_ok (n_ths s) -> nth_error (n_ths s) t = Some th ->
  Forall rets_ok (n_ths (n_exec s t c th o rest)).
Proof.
  intros HF Et. pose proof (Forall_nth_error _ _ _ _ HF Et) as Hth.
  assert (U : forall th', rets_ok th' -> Forall rets_ok (upd (n_ths s) t th')) by (intros; now apply Forall_upd).
  (* only the return of a wait records anything *)
  unfold n_exec. destruct o, (n_pc th); try exact HF; try (apply U; exact Hth).
  - destruct (less32 (n_ticket th) (n_notify s)) eqn:E; [|apply U; exact Hth].
    (* the loop condition was false, i.e. less32 ticket notify *)
    apply U, Forall_app. split; [exact Hth|]. constructor; [exact E | constructor].
  - destruct (n_l1 th =? n_wait s); apply U; exact Hth.
Qed.

Lemma rets_step s tc s' : Forall rets_ok (n_ths s) -> n_step s tc = Some s' -> Forall rets_ok (n_ths s').
Proof.
  destruct tc as [t c]. intros H E.
  apply n_step_inv in E as (th & o & rest & Et & _ & [->| ->]); [exact H|].
  now apply rets_exec.
Qed.

Lemma rets_run sc : forall s, Forall rets_ok (n_ths s) -> Forall rets_ok (n_ths (n_run sc s)).
Proof.
  apply (run_invariant n_step n_run (fun s => Forall rets_ok (n_ths s))); [reflexivity | reflexivity | apply rets_step].
Qed.

Lemma rets_init v0 progs : Forall rets_ok (n_ths (n_init v0 progs)).
Proof. cbn. rewrite Forall_map. apply Forall_forall. intros p _. constructor. Qed.

(* a woken waiter that gets the mutex returns iff its ticket is below l.notify;
   otherwise it parks again *)
Lemma woken_waiter_returns s t c c' th rest :
  nth_error (n_ths s) t = Some th -> nprog th = NWait :: rest -> n_pc th = MW ->
  n_parked s t = false -> n_mu s = None ->
  exists s1 s2 th2, n_step s (t, c) = Some s1 /\ n_step s1 (t, c') = Some s2 /\
    nth_error (n_ths s2) t = Some th2 /\
    (if less32 (n_ticket th) (n_notify s)
     then nprog th2 = rest /\ n_done th2 = S (n_done th)
     else n_parked s2 t = true /\ n_pc th2 = MW).
Proof.
  intros Et Ep Epc Epk Emu.
  assert (Hlt : (t < length (n_ths s))%nat) by (apply nth_error_Some; congruence).
  (* first step: re-lock, back to the loop condition *)
  set (th1 := ngoto th MC). set (s1 := n_set s t th1 (Some t)).
  assert (S1 : n_step s (t, c) = Some s1).
  { rewrite (n_step_exec s t c th NWait rest Et Ep Epk).
    - unfold n_exec. now rewrite Epc.
    - now rewrite Epc, Emu. }
  assert (E1 : nth_error (n_ths s1) t = Some th1) by (apply nth_error_upd_same; exact Hlt).
  assert (Hlt1 : (t < length (n_ths s1))%nat) by (cbn; now rewrite length_upd).
  (* second step: Load(notify) and compare *)
  pose proof (n_step_exec s1 t c' th1 NWait rest E1 Ep Epk eq_refl) as S2.
  unfold n_exec in S2. cbn [n_pc th1 ngoto n_ticket n_notify s1 n_set] in S2.
  destruct (less32 (n_ticket th) (n_notify s)); cbn [negb] in S2;
    (eexists s1, _, _; split; [exact S1|]; split; [exact S2|]; split;
      [apply nth_error_upd_same; exact Hlt1|]).
  - split; reflexivity.
  - split; [|reflexivity]. unfold n_parked, mem_nat. cbn [n_waitq].
    rewrite existsb_app. cbn. rewrite Nat.eqb_refl. now rewrite orb_true_r.
Qed.

Lemma all_aops_complete o : In o all_aops.
Proof. destruct o; cbn; tauto. Qed.

Lemma all_awidths_complete w : In w all_awidths.
Proof. destruct w; cbn; tauto. Qed.

Lemma ainstr_eqb_eq a b : ainstr_eqb a b = true -> a = b.
Proof. destruct a, b; intros H; (reflexivity || discriminate H). Qed.

Lemma awidth_eqb_eq a b : awidth_eqb a b = true -> a = b.
Proof. destruct a, b; intros H; (reflexivity || discriminate H). Qed.

Lemma aord_eqb_eq a b : aord_eqb a b = true -> a = b.
Proof. destruct a, b; intros H; (reflexivity || discriminate H). Qed.

Lemma instr_ok_sound i i0 : instr_ok i i0 = true -> i = i0 \/ expanded_form i0 = Some i.
Proof.
  unfold instr_ok. intros H. apply orb_true_iff in H as [H|H].
  - left. now apply ainstr_eqb_eq.
  - right. destruct (expanded_form i0) as [j|]; [|discriminate]. f_equal. symmetry. now apply ainstr_eqb_eq.
Qed.

Lemma ords_ok_sound ord0 ords :
  match ords with [] => false | _ => forallb (aord_eqb ord0) ords end = true ->
  ords <> [] /\ forall x, In x ords -> x = ord0.
Proof.
  destruct ords as [|y ords]; [discriminate|]. rewrite forallb_forall. intros H.
  split; [discriminate|]. intros x Hx. symmetry. now apply aord_eqb_eq, H.
Qed.

Lemma width_ok_sound pw w' w : width_ok pw w' w = true -> w' = w \/ (w = WPtr /\ w' = pw).
Proof.
  unfold width_ok. intros H. apply orb_true_iff in H as [H|H].
  - left. now apply awidth_eqb_eq.
  - right. destruct w; try discriminate. split; [reflexivity | now apply awidth_eqb_eq].
Qed.

Definition vop_ok (o : vop) : Prop := match o with VStore d => d <> 0 | VLoad => True end.
Definition vres_ok (r : vres) : Prop := match r with VRVal d => d <> 0 | _ => True end.

(* what a thread needs of the data word D, depending on where it is *)
Definition vth_ok (D : Prop) (th : vthread) : Prop :=
  (v_pc th = VSt2 \/ v_pc th = VLd2 -> D) /\ Forall vop_ok (vprog th) /\ Forall vres_ok (vout th).

Definition vinv (s : vstate) : Prop :=
  (v_typ s = TSet -> v_data s <> 0) /\ Forall (vth_ok (v_data s <> 0)) (v_ths s).

Lemma vth_ok_weaken (D D' : Prop) th : (D -> D') -> vth_ok D th -> vth_ok D' th.
Proof. intros H (A & B & C). repeat split; auto. Qed.

Lemma vth_ok_goto (D D' : Prop) th p :
  vth_ok D' th -> (p = VSt2 \/ p = VLd2 -> D) -> vth_ok D (vgoto th p).
Proof. intros (_ & B & C) Hp. exact (conj Hp (conj B C)). Qed.

Lemma vth_ok_fin (D D' : Prop) th o rest r :
  vth_ok D' th -> vprog th = o :: rest -> vres_ok r -> vth_ok D (vfin th rest r).
Proof.
  intros (_ & B & C) Ep Hr. rewrite Ep in B. split; [intros [H|H]; discriminate|].
  split; [exact (Forall_inv_tail B) | apply Forall_app; auto].
Qed.

(* one thread replaced, new words: the other threads need no more of the data word than before *)
Lemma vinv_intro s t th' ty d :
  vinv s -> (v_data s <> 0 -> d <> 0) -> (ty = TSet -> d <> 0) -> vth_ok (d <> 0) th' ->
  vinv (mkVS ty d (upd (v_ths s) t th')).
Proof.
  intros [_ HF] Hd HT Hth. split; [exact HT|]. apply Forall_upd; [|exact Hth].
  revert HF. apply Forall_impl. intros a. now apply vth_ok_weaken.
Qed.

Lemma vinv_exec s t th o rest :
  vinv s -> nth_error (v_ths s) t = Some th -> vprog th = o :: rest -> vinv (v_exec false s t th o rest).
Proof.
  intros Hs Et Ep. pose proof Hs as [HT HF].
  pose proof (Forall_nth_error _ _ _ _ HF Et) as Hth. pose proof Hth as (Hpc & Hops & _).
  rewrite Ep in Hops. apply Forall_inv in Hops.
  pose proof (fun D p => vth_ok_goto D _ th p Hth) as Hgoto.
  pose proof (fun D r => vth_ok_fin D _ th o rest r Hth Ep) as Hfin.
  unfold v_exec. destruct o as [d|], (v_pc th) eqn:Epc; try exact Hs; cbn [vop_ok] in Hops.
  - (* Store: LoadPointer(typ) *)
    apply vinv_intro; trivial. apply Hgoto. destruct (v_typ s); intros [H|H]; discriminate.
  - (* CAS *)
    destruct (v_typ s); apply vinv_intro; trivial; try (intros E; discriminate E);
      apply Hgoto; intros [H|H]; discriminate.
  - (* first store: the data word, non-zero *)
    apply vinv_intro; auto.
  - (* second store: the type word; the data word has been written *)
    apply vinv_intro; auto. apply Hfin. exact I.
  - (* later Store overwrites the data word with a non-zero pointer *)
    apply vinv_intro; auto. apply Hfin. exact I.
  - (* Load: LoadPointer(typ); goes on to the data word only if the type word is set *)
    destruct (v_typ s); apply vinv_intro; trivial; try (apply Hfin; exact I). apply Hgoto. auto.
  - (* Load: LoadPointer(data) *)
    apply vinv_intro; trivial. apply Hfin. apply Hpc. auto.
Qed.

Lemma vinv_step s t s' : vinv s -> v_step false s t = Some s' -> vinv s'.
Proof.
  intros H. unfold v_step. destruct (nth_error (v_ths s) t) as [th|] eqn:Et; [|discriminate].
  destruct (vprog th) as [|o rest] eqn:Ep; [discriminate|]. intros [= <-]. now apply vinv_exec.
Qed.

Lemma vinv_run sc : forall s, vinv s -> vinv (v_run false sc s).
Proof. apply (run_invariant (v_step false) (v_run false)); [reflexivity | reflexivity | apply vinv_step]. Qed.

Lemma vinv_init progs : Forall (Forall vop_ok) progs -> vinv (v_init progs).
Proof.
  intros H. split; [discriminate|]. cbn. rewrite Forall_map. revert H. apply Forall_impl.
  intros p Hp. unfold vth_ok; cbn. repeat split; auto. intros [E|E]; discriminate.
Qed.
