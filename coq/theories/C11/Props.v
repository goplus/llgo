(* C11 - property theorems only.  Models: C11/Model.v, interleaving semantics of
   sema_llgo.go at the granularity "one step = from one atomic operation / Lock /
   Wait-return / Signal / Broadcast to the next":
     machine S  semaAcquire / semaRelease on one address   ([s_run sc (s_init v0 progs)])
     machine N  notifyListAdd+Wait / NotifyOne / NotifyAll ([n_run sc (n_init v0 progs)])
   A schedule is any list of (thread, choice); a step of a parked thread is a spurious
   wake-up; counters wrap mod 2^32 explicitly.  The count theorems hold for ALL
   schedules and any number of threads (by invariant).  Two statements of the property
   that used to be false of the code (F7: notifyListWait returned without a notify;
   semaAcquire slept on a positive count after a lost CAS race) are repaired in the
   modelled code; their former witness schedules are kept as Examples. *)
From LLGoV Require Import Lib.Common C11.Model C11.Proofs.
Local Open Scope N_scope.

(* the semaphore count: value + completed acquires (+ 2^32 per overflow of the
   uint32 counter) = initial value + releases, in every reachable state *)
Theorem sema_count_invariant : forall v0 progs sc, v0 < 4294967296 ->
  let s := s_run sc (s_init v0 progs) in
  s_val s + s_acq s + 4294967296 * s_wraps s = v0 + s_rel s /\ s_val s < 4294967296.
Proof.
  intros v0 progs sc H s. destruct (sinv_run v0 sc _ (sinv_init v0 progs H)) as (A & B & _). auto.
Qed.
Print Assumptions sema_count_invariant.

(* without overflow: #completed acquires <= initial + #releases; the value is the
   difference (never "negative").  With v0 = 1 and every release preceded by an acquire
   of the same thread this is mutual exclusion: acquires - releases <= 1. *)
Theorem sema_acquires_bounded : forall v0 progs sc,
  let s := s_run sc (s_init v0 progs) in
  v0 + s_rel s < 4294967296 ->
  s_val s + s_acq s = v0 + s_rel s /\ s_acq s <= v0 + s_rel s.
Proof.
  intros v0 progs sc s H. destruct (sema_count_invariant v0 progs sc) as [A B].
  - apply N.le_lt_trans with (v0 + s_rel s); [apply N.le_add_r | exact H].
  - fold s in A, B. lia.
Qed.
Print Assumptions sema_acquires_bounded.

Example sema_nontrivial :
  let s := s_run [(0,0);(1,0);(0,0);(1,0);(1,0);(1,0);(1,0);(1,0);(0,0);(0,0);(0,0)]%nat
                 (s_init 1 [[SAcq; SRel]; [SAcq]]) in
  (s_val s, s_acq s, s_rel s, s_waiters s) = (1, 1, 1, 1).
Proof. reflexivity. Qed.

(* semaAcquire goes to sleep only after reading the count as 0 while holding the
   state mutex (the former defect - sleeping after a lost CompareAndSwap race with the
   count still positive - is repaired): in EVERY state, a step that puts the thread
   into the wait queue saw s_val = 0.  Partial: the global no-lost-wake-up statement
   over schedules (no state with positive count, a parked acquirer and nobody
   runnable) is checked by the harness oracle on the real code, not proved. *)
Theorem sema_parks_only_on_zero_partial : forall s t c s',
  s_step s (t, c) = Some s' -> s_parked s t = false -> s_parked s' t = true ->
  s_val s = 0.
Proof.
  intros s t c s' H Hp Hp'.
  apply s_step_inv in H as (th & o & rest & _ & _ & [[E _]|[_ ->]]); [congruence|].
  apply s_exec_joins in Hp' as [Hq|[_ Z]]; [unfold s_parked in Hp; congruence | exact Z].
Qed.
Print Assumptions sema_parks_only_on_zero_partial.

Example former_lost_wakeup_schedule_now_completes :
  let s := s_run [(0,0);(1,0);(0,0);(0,0);(1,0);(1,0);(0,0);(0,0);(1,0);(1,0);(0,0);(0,0);(0,0)]%nat
                 (s_init 1 [[SAcq]; [SRel; SAcq]]) in
  map s_done (s_ths s) = [1; 2]%nat /\ s_val s = 0 /\ s_waitq s = [].
Proof. vm_compute. auto. Qed.

(* F7 repaired - Cond.Wait returns only after a Signal/Broadcast: under every
   schedule, every completed notifyListWait returned with its ticket below l.notify
   in Go's wrap-aware order (n_rets records (ticket, l.notify at return)); l.notify
   only moves by NotifyOne (+1, when it differs from l.wait) and NotifyAll (:= l.wait) *)
Theorem notify_wait_returns_only_after_notify : forall v0 progs sc t th tk nt,
  nth_error (n_ths (n_run sc (n_init v0 progs))) t = Some th ->
  In (tk, nt) (n_rets th) -> less32 tk nt = true.
Proof.
  intros v0 progs sc t th tk nt Et Hin.
  pose proof (Forall_nth_error _ _ _ _ (rets_run sc _ (rets_init v0 progs)) Et) as Hth.
  unfold rets_ok in Hth. rewrite Forall_forall in Hth. exact (Hth _ Hin).
Qed.
Print Assumptions notify_wait_returns_only_after_notify.

Example former_f7_schedule_now_waits :
  let s := n_run [(0,0);(0,0);(0,0);(0,0);(1,0);(1,0);(1,0);(1,0)]%nat (n_init 0 [[NWait]; [NWait]]) in
  n_waitq s = [0; 1]%nat /\ map n_done (n_ths s) = [0; 0]%nat.
Proof. vm_compute. auto. Qed.

Example notify_nontrivial :
  let s := n_run [(0,0);(0,0);(0,0);(0,0);(1,0);(1,0);(1,0);(1,0);(1,0);(1,0);(0,0);(0,0)]%nat
                 (n_init 4294967295 [[NWait]; [NOne]]) in
  map n_rets (n_ths s) = [[(4294967295, 0)]; []] /\ n_wrapped s = true.
Proof. vm_compute. auto. Qed.

(* NotifyAll / NotifyOne release the waiters - partial: one-step facts that hold in
   EVERY state.  (1) the Broadcast step of NotifyAll and of NotifyOne empties the wait
   queue and frees the mutex; (2) a woken waiter that gets the mutex completes its call
   after two own steps iff its ticket is below l.notify, otherwise it parks again.
   Not proved: the global statement over schedules (needs the mutex-ownership
   invariant); it is covered by the harness oracles notify-lost-wakeup and
   notify-all-left-earlier-waiter-blocked on the real code. *)
Theorem notifier_wakes_every_waiter_partial : forall s t c th o rest,
  nth_error (n_ths s) t = Some th -> nprog th = o :: rest ->
  (o = NAll /\ n_pc th = MA3) \/ (o = NOne /\ n_pc th = MA4) ->
  n_parked s t = false ->
  exists s', n_step s (t, c) = Some s' /\ n_waitq s' = [] /\ n_mu s' = None.
Proof.
  intros s t c th o rest Et Ep H Epk. exists (n_exec s t c th o rest). split.
  - apply n_step_exec; trivial. destruct H as [[_ ->]|[_ ->]]; reflexivity.
  - unfold n_exec. destruct H as [[-> ->]|[-> ->]]; split; reflexivity.
Qed.
Print Assumptions notifier_wakes_every_waiter_partial.

Theorem notify_woken_waiter_returns_partial : forall s t c c' th rest,
  nth_error (n_ths s) t = Some th -> nprog th = NWait :: rest -> n_pc th = MW ->
  n_parked s t = false -> n_mu s = None ->
  exists s1 s2 th2, n_step s (t, c) = Some s1 /\ n_step s1 (t, c') = Some s2 /\
    nth_error (n_ths s2) t = Some th2 /\
    (if less32 (n_ticket th) (n_notify s)
     then nprog th2 = rest /\ n_done th2 = S (n_done th)
     else n_parked s2 t = true /\ n_pc th2 = MW).
Proof. exact woken_waiter_returns. Qed.
Print Assumptions notify_woken_waiter_returns_partial.

(* sync/atomic: every operation of every width is lowered to an LLVM atomic
   instruction with seq_cst ordering (one total order of all atomic operations); the
   table covers every operation x width of Go's API.  props/C11/check.py compares
   the table with the IR the working tree's cl+ssa emit for every sync/atomic function
   and typed method ([lowering_ok], evaluated inside Coq); [lowering_ok_meaning] says
   what an accepted function body contains.  The indivisibility of the instructions
   themselves is LLVM's and the CPU's (assumed). *)
Theorem atomics_table_seq_cst : forall o w, snd (atomic_lowering o w) = OSeqCst.
Proof. reflexivity. Qed.
Print Assumptions atomics_table_seq_cst.

Theorem atomics_table_covers_api : forall o w, api_has o w = true -> In (o, w) api_keys.
Proof.
  intros o w H. apply filter_In. split; [|exact H].
  apply in_flat_map. exists o. split; [apply all_aops_complete | apply in_map, all_awidths_complete].
Qed.
Print Assumptions atomics_table_covers_api.

Theorem lowering_ok_meaning : forall pw o w ins, lowering_ok pw (o, w, ins) = true ->
  ins <> [] /\
  forall i w' ords, In (i, w', ords) ins ->
    (i = fst (atomic_lowering o w) \/ expanded_form (fst (atomic_lowering o w)) = Some i) /\
    (w' = w \/ (w = WPtr /\ w' = pw)) /\ ords <> [] /\ forall x, In x ords -> x = OSeqCst.
Proof.
  unfold lowering_ok, atomic_lowering. cbn [fst]. intros pw o w [|x ins] H; [discriminate|].
  split; [discriminate|]. intros i w' ords Hin.
  rewrite forallb_forall in H. specialize (H _ Hin). cbn beta iota in H.
  apply andb_true_iff in H as [H H3]. apply andb_true_iff in H as [H1 H2].
  split; [now apply instr_ok_sound|]. split; [now apply width_ok_sound | now apply ords_ok_sound].
Qed.
Print Assumptions lowering_ok_meaning.

Example lowering_rejects_acquire_load :
  lowering_ok W64 (ALoad, W32, [(ILoadAtomic, W32, [OAcquire])]) = false /\
  lowering_ok W64 (AStore, W64, [(IStoreAtomic, W64, [ORelease])]) = false /\
  lowering_ok W64 (ACas, WPtr, [(ICmpXchg, W64, [OSeqCst; OMonotonic])]) = false /\
  lowering_ok W64 (ALoad, W32, []) = false /\
  lowering_ok W64 (ALoad, W32, [(ILoadAtomic, W64, [OSeqCst])]) = false /\
  lowering_ok W64 (AAnd, W32, [(ICmpXchg, W32, [OSeqCst; OSeqCst])]) = true /\
  lowering_ok W64 (AAnd, W32, [(IRmwAnd, W32, [OSeqCst])]) = true /\
  lowering_ok W64 (ACas, WPtr, [(ICmpXchg, W64, [OSeqCst; OSeqCst])]) = true.
Proof. repeat split. Qed.

(* atomic.Value (machine V, every pointer atomic one step): under every schedule and for
   any number of storers and loaders - all stored pointers non-nil, as Store demands -
   the type word is published only after the data word: once the type word is set the
   data word is non-nil, and no Load has ever returned a non-nil type word with a nil data
   word.  (Stores of differently typed values panic and are not modelled; Swap and
   CompareAndSwap share the first-store protocol and are not modelled either.) *)
Theorem value_type_published_after_data : forall progs sc, Forall (Forall vop_ok) progs ->
  let s := v_run false sc (v_init progs) in
  (v_typ s = TSet -> v_data s <> 0) /\
  forall t th d, nth_error (v_ths s) t = Some th -> In (VRVal d) (vout th) -> d <> 0.
Proof.
  intros progs sc H s. destruct (vinv_run sc _ (vinv_init progs H)) as [HT HF]. fold s in HF.
  split; [exact HT|]. intros t th d Et Hin.
  destruct (Forall_nth_error _ _ _ _ HF Et) as (_ & _ & Hout).
  rewrite Forall_forall in Hout. exact (Hout _ Hin).
Qed.
Print Assumptions value_type_published_after_data.

(* with the two publishing stores of the first Store the other way round (type word
   first) the statement is false: Store || Load, schedule 1,1,1,0,0,1 *)
Theorem value_reordered_stores_refuted :
  exists progs sc, Forall (Forall vop_ok) progs /\
    let s := v_run true sc (v_init progs) in
    exists th, nth_error (v_ths s) 0 = Some th /\ vout th = [VRVal 0].
Proof.
  exists [[VLoad]; [VStore 2]], [1;1;1;0;0;1]%nat. split.
  - repeat constructor; cbn; discriminate.
  - vm_compute. eexists; split; reflexivity.
Qed.
Print Assumptions value_reordered_stores_refuted.

Example value_nontrivial :
  let s := v_run false [1;1;0;1;2;1;0;2;2;0]%nat (v_init [[VLoad; VLoad]; [VStore 3]; [VStore 5; VLoad]]) in
  (v_typ s, v_data s) = (TSet, 5).
Proof. vm_compute. reflexivity. Qed.
