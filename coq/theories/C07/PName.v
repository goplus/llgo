(* C07 - identical types have one name; witnesses where distinct types share a name *)
From LLGoV Require Import C07.Model C07.PItab C07.PStr.
Local Open Scope N_scope.

Lemma ostr_eqb_eq a b : ostr_eqb a b = true -> a = b.
Proof.
  destruct a, b; cbn; try discriminate; auto. intros E. f_equal. now apply str_eqb_eq.
Qed.
Lemma scope_eqb_eq a b : scope_eqb a b = true -> a = b.
Proof.
  destruct a, b; cbn; try discriminate; auto.
  - intros E. f_equal. now apply str_eqb_iff.
  - intros E. f_equal. now apply N.eqb_eq.
Qed.
Lemma dir_eqb_eq a b : dir_eqb a b = true -> a = b.
Proof. destruct a, b; cbn; try discriminate; auto. Qed.

Definition is_recv_chan (t : ty) : bool := match t with TChan DRecv _ => true | _ => false end.

Lemma targ_str_chan d e :
  targ_str (TChan d e) =
  dir_str d ++ [c_sp] ++ (if dir_eqb d DBoth && is_recv_chan e then [c_lp] ++ targ_str e ++ [c_rp] else targ_str e).
Proof. destruct d; cbn [dir_eqb andb]; try reflexivity. destruct e; try reflexivity. destruct d; reflexivity. Qed.

Lemma is_recv_chan_ident e e2 : identb e e2 = true -> is_recv_chan e = is_recv_chan e2.
Proof.
  destruct e, e2; try discriminate; try reflexivity. cbn [identb is_recv_chan]. intros E.
  apply andb_true_iff in E as [E _]. now rewrite (dir_eqb_eq _ _ E).
Qed.

Lemma same_id_name n1 p1 n2 p2 : same_id n1 p1 n2 p2 = true -> n1 = n2 /\ (exported n1 = true \/ p1 = p2).
Proof.
  unfold same_id. intros E. apply andb_true_iff in E as [A B]. apply str_eqb_eq in A. split; auto.
  apply orb_true_iff in B as [B|B]; auto. right. now apply ostr_eqb_eq.
Qed.

Lemma is_func_ident a b : identb a b = true -> is_func a = is_func b.
Proof. destruct a, b; try discriminate; reflexivity. Qed.
Lemma is_unsafe_ptr_ident a b : identb a b = true -> is_unsafe_ptr a = is_unsafe_ptr b.
Proof.
  destruct a, b; try discriminate; try reflexivity. cbn [identb is_unsafe_ptr].
  intros E. apply N.eqb_eq in E. now subst.
Qed.

Lemma identb_fields_cons n e g p t r fs2 : identb_fields (FsCons n e g p t r) fs2 = true ->
  exists p2 t2 r2, fs2 = FsCons n e g p2 t2 r2 /\ (exported n = true \/ p = p2)
                   /\ identb t t2 = true /\ identb_fields r r2 = true.
Proof.
  destruct fs2 as [|n2 e2 g2 p2 t2 r2]; [discriminate|]. cbn [identb_fields]. rewrite !andb_true_iff.
  intros ((((A & B) & C) & E) & F). apply Bool.eqb_prop in A. apply same_id_name in B as [-> B].
  apply str_eqb_eq in C. subst. eauto 10.
Qed.

Lemma is_closure_ident fs fs2 : identb_fields fs fs2 = true -> is_closure fs = is_closure fs2.
Proof.
  destruct fs as [|n1 e1 g1 p1 t1 r]; [destruct fs2; [reflexivity|discriminate]|].
  intros E. apply identb_fields_cons in E as (q1 & u1 & s1 & -> & _ & E1 & E).
  destruct r as [|n2 e2 g2 p2 t2 r]; [destruct s1; [reflexivity|discriminate]|].
  apply identb_fields_cons in E as (q2 & u2 & s2 & -> & _ & E2 & E).
  destruct r as [|n3 e3 g3 p3 t3 r]; [destruct s2; [|discriminate]|].
  - cbn [is_closure]. now rewrite (is_func_ident _ _ E1), (is_unsafe_ptr_ident _ _ E2).
  - apply identb_fields_cons in E as (q3 & u3 & s3 & -> & _). reflexivity.
Qed.

Lemma method_id_same n p q : (exported n = true \/ p = q) -> method_id n p = method_id n q.
Proof. unfold method_id. intros [-> | ->]; reflexivity. Qed.

Section Same.
Variable fx : bool.
Variable H : str -> str.

Lemma tn_func pm ps rs v : tn fx H pm (TFunc ps rs v) =
  (s_func_ ++ H (func_hdr (tys_len ps) (tys_len rs) v ++ tuple_lines fx H ps ++ tuple_lines fx H rs), true).
Proof. reflexivity. Qed.
Definition head_tn (fs : fields) : str * bool :=
  match fs with FsCons _ _ _ _ t0 _ => tn fx H false t0 | FsNil => ([], false) end.

Lemma tn_struct pm fs : tn fx H pm (TStruct fs) =
  if pm && is_closure fs then head_tn fs
  else
    let h := H (s_struct ++ [c_sp] ++ dec (fields_len fs) ++ [c_nl] ++ field_lines fx H fs) in
    if is_closure fs then (s_closure_ ++ h, true)
    else match fields_pkg [] fs with
         | [] => (s_struct_ ++ h, false)
         | p => (p ++ s_dstruct ++ h, false)
         end.
Proof. reflexivity. Qed.
Lemma tn_iface pm ms : tn fx H pm (TIface ms) =
  match ms with
  | MsNil => (s_any, true)
  | _ =>
      let h := H (s_interface ++ [c_sp] ++ dec (methods_len ms) ++ [c_nl] ++ method_lines fx H ms) in
      match methods_pkg [] ms with
      | [] => (s_iface_ ++ h, true)
      | p => (p ++ s_diface ++ h, false)
      end
  end.
Proof. reflexivity. Qed.
Lemma tuple_lines_cons n t r : tuple_lines fx H (TsCons n t r) = fst (tn fx H true t) ++ [c_nl] ++ tuple_lines fx H r.
Proof. reflexivity. Qed.
Lemma field_lines_cons n emb tag pkg t r : field_lines fx H (FsCons n emb tag pkg t r) =
  (if emb then (if fx then c_dash :: n else [c_dash]) else n) ++ [c_sp] ++ fst (tn fx H false t)
  ++ (if fx && negb (is_nil tag) then [c_sp] ++ quote_tag tag else []) ++ [c_nl] ++ field_lines fx H r.
Proof. reflexivity. Qed.
Lemma method_lines_cons n pkg ps rs v r : method_lines fx H (MsCons n pkg ps rs v r) =
  (if fx then method_id n pkg else n) ++ [c_sp] ++ (s_func_ ++ H (func_hdr (tys_len ps) (tys_len rs) v ++ tuple_lines fx H ps ++ tuple_lines fx H rs))
  ++ [c_nl] ++ method_lines fx H r.
Proof. reflexivity. Qed.

Definition P_ty (t : ty) : Prop := forall t2, identb t t2 = true ->
  (targs_ok t = true -> targs_ok t2 = true -> forall pm, tn fx H pm t = tn fx H pm t2) /\
  (targ_plain t = true -> targ_plain t2 = true -> targ_str t = targ_str t2).
Definition P_tys (ts : tys) : Prop := forall ts2, identb_tys ts ts2 = true ->
  (targs_ok_tys ts = true -> targs_ok_tys ts2 = true ->
     tuple_lines fx H ts = tuple_lines fx H ts2 /\ tys_len ts = tys_len ts2) /\
  (targs_plain ts = true -> targs_plain ts2 = true -> targs_strs ts = targs_strs ts2).
Definition P_fields (fs : fields) : Prop := forall fs2, identb_fields fs fs2 = true ->
  targs_ok_fields fs = true -> targs_ok_fields fs2 = true ->
  field_lines fx H fs = field_lines fx H fs2 /\ fields_len fs = fields_len fs2 /\
  (forall acc, fields_pkg acc fs = fields_pkg acc fs2) /\ head_tn fs = head_tn fs2.
Definition P_methods (ms : methods) : Prop := forall ms2, identb_methods ms ms2 = true ->
  targs_ok_methods ms = true -> targs_ok_methods ms2 = true ->
  method_lines fx H ms = method_lines fx H ms2 /\ methods_len ms = methods_len ms2 /\
  (forall acc, methods_pkg acc ms = methods_pkg acc ms2).

Lemma tys_nil_iff (a b : tys) : (a = TsNil <-> b = TsNil) ->
  match a with TsNil => true | _ => false end = match b with TsNil => true | _ => false end.
Proof. destruct a, b; auto; intros [A B]; try (specialize (A eq_refl); discriminate); specialize (B eq_refl); discriminate. Qed.

Lemma same_name_all :
  (forall t, P_ty t) /\ (forall ts, P_tys ts) /\ (forall fs, P_fields fs) /\ (forall ms, P_methods ms).
Proof.
  apply ty_mutind; unfold P_ty, P_tys, P_fields, P_methods.
  - intros k al [] E; cbn [identb] in E; try discriminate E. apply N.eqb_eq in E. subst.
    split; [reflexivity|]. cbn [targ_plain]. intros A B. apply negb_true_iff in A, B. now subst.
  - intros pkg name targs IH sc [|pkg2 name2 targs2 sc2| | | | | | | |] E; cbn [identb] in E; try discriminate E.
    apply andb_true_iff in E as [E Et]. apply andb_true_iff in E as [E Es]. apply andb_true_iff in E as [Ep En].
    apply ostr_eqb_eq in Ep. apply str_eqb_eq in En. apply scope_eqb_eq in Es. subst.
    destruct (IH _ Et) as [_ S].
    split; cbn [targs_ok targ_plain tn targ_str]; intros A B; [intros pm; unfold named_name|];
      rewrite (S A B); destruct targs, targs2; try discriminate Et; reflexivity.
  - intros e IH [] E; cbn [identb] in E; try discriminate E. destruct (IH _ E) as [A B].
    split; cbn [targs_ok targ_plain tn targ_str]; intros X Y; [intros pm; now rewrite (A X Y false)|now rewrite (B X Y)].
  - intros e IH [] E; cbn [identb] in E; try discriminate E. destruct (IH _ E) as [A B].
    split; cbn [targs_ok targ_plain tn targ_str]; intros X Y; [intros pm; now rewrite (A X Y false)|now rewrite (B X Y)].
  - intros n e IH [] E; cbn [identb] in E; try discriminate E.
    apply andb_true_iff in E as [En E]. apply N.eqb_eq in En. subst. destruct (IH _ E) as [A B].
    split; cbn [targs_ok targ_plain tn targ_str]; intros X Y; [intros pm; now rewrite (A X Y false)|now rewrite (B X Y)].
  - intros k IHk e IHe [] E; cbn [identb] in E; try discriminate E.
    apply andb_true_iff in E as [Ek Ee]. destruct (IHk _ Ek) as [A B], (IHe _ Ee) as [C D].
    split; cbn [targs_ok targ_plain tn targ_str]; intros X Y;
      apply andb_true_iff in X as [X1 X2]; apply andb_true_iff in Y as [Y1 Y2].
    + intros pm. now rewrite (A X1 Y1 false), (C X2 Y2 false).
    + now rewrite (B X1 Y1), (D X2 Y2).
  - intros d e IH [] E; cbn [identb] in E; try discriminate E.
    apply andb_true_iff in E as [Ed E]. apply dir_eqb_eq in Ed. subst. destruct (IH _ E) as [A B].
    split.
    + cbn [targs_ok tn]. intros X Y pm. now rewrite (A X Y false).
    + cbn [targ_plain]. intros X Y. now rewrite !targ_str_chan, (B X Y), (is_recv_chan_ident _ _ E).
  - intros ps IHp rs IHr v [] E; cbn [identb] in E; try discriminate E.
    apply andb_true_iff in E as [E Er]. apply andb_true_iff in E as [Ev Ep]. apply Bool.eqb_prop in Ev. subst.
    split; [|discriminate]. cbn [targs_ok]. intros X Y pm.
    apply andb_true_iff in X as [X1 X2]. apply andb_true_iff in Y as [Y1 Y2]. rewrite !tn_func.
    destruct (proj1 (IHp _ Ep) X1 Y1) as [-> ->], (proj1 (IHr _ Er) X2 Y2) as [-> ->]. reflexivity.
  - intros fs IH [| | | | | | | |fs2|] E; cbn [identb] in E; try discriminate E.
    split; [|discriminate]. cbn [targs_ok]. intros X Y pm. destruct (IH _ E X Y) as (A & B & C & D).
    rewrite !tn_struct. cbn zeta. rewrite A, B, (C []), (is_closure_ident _ _ E).
    destruct (pm && is_closure fs2); [exact D|reflexivity].
  - intros ms IH [| | | | | | | | |ms2] E; cbn [identb] in E; try discriminate E.
    split; [|discriminate]. cbn [targs_ok]. intros X Y pm. destruct (IH _ E X Y) as (A & B & C).
    rewrite !tn_iface. cbn zeta. rewrite A, B, (C []). destruct ms, ms2; try discriminate E; reflexivity.
  - intros [] E; try discriminate E. repeat split.
  - intros nm t IHt r IHr [] E; cbn [identb_tys] in E; try discriminate E.
    apply andb_true_iff in E as [Et Er]. destruct (IHt _ Et) as [A B], (IHr _ Er) as [C D].
    split; cbn [targs_ok_tys targs_plain]; intros X Y;
      apply andb_true_iff in X as [X1 X2]; apply andb_true_iff in Y as [Y1 Y2].
    + destruct (C X2 Y2) as [C1 C2]. rewrite !tuple_lines_cons. cbn [tys_len]. now rewrite (A X1 Y1 true), C1, C2.
    + cbn [targs_strs]. now rewrite (B X1 Y1), (D X2 Y2).
  - intros [] E; try discriminate E. repeat split.
  - intros n emb tag pkg t IHt r IHr fs2 E.
    apply identb_fields_cons in E as (p2 & t2 & r2 & -> & SP & Et & Er).
    cbn [targs_ok_fields]. intros X Y. apply andb_true_iff in X as [X1 X2]. apply andb_true_iff in Y as [Y1 Y2].
    destruct (IHr _ Er X2 Y2) as (C1 & C2 & C3 & _). pose proof (proj1 (IHt _ Et) X1 Y1 false) as TN.
    rewrite !field_lines_cons. cbn [fields_len fields_pkg head_tn]. rewrite TN, C1, C2. repeat split; auto.
    intros acc. destruct SP as [SP| ->]; [|apply C3]. rewrite SP. destruct acc, pkg, p2; apply C3.
  - intros [] E; try discriminate E. repeat split.
  - intros n pkg ps IHp rs IHr v r IHm [|n2 pkg2 ps2 rs2 v2 r2] E; cbn [identb_methods] in E; try discriminate E.
    apply andb_true_iff in E as [E Em]. apply andb_true_iff in E as [E Er]. apply andb_true_iff in E as [E Ep].
    apply andb_true_iff in E as [SP Ev]. apply Bool.eqb_prop in Ev. apply same_id_name in SP as [-> SP]. subst.
    cbn [targs_ok_methods]. intros X Y.
    apply andb_true_iff in X as [X Xm]. apply andb_true_iff in X as [Xp Xr].
    apply andb_true_iff in Y as [Y Ym]. apply andb_true_iff in Y as [Yp Yr].
    destruct (IHm _ Em Xm Ym) as (C1 & C2 & C3).
    destruct (proj1 (IHp _ Ep) Xp Yp) as [A1 A2], (proj1 (IHr _ Er) Xr Yr) as [B1 B2].
    rewrite !method_lines_cons. cbn [methods_len methods_pkg].
    rewrite A1, A2, B1, B2, C1, C2, (method_id_same _ _ _ SP). repeat split.
    intros acc. destruct SP as [SP| ->]; [|apply C3]. rewrite SP. destruct acc, pkg, pkg2; apply C3.
Qed.
End Same.

(* witnesses, for every hash: distinct types with one name; the last one (targ_alias_witness) is
   the converse, one type with two names *)
Section Witness.
Variable fx : bool.
Variable H : str -> str.
Definition p_a : str := [97].                       (* a *)
Definition p_xa : str := [120; 47; 97].             (* x/a *)
Definition p_xb : str := [120; 47; 98].             (* x/b *)
Definition t_int := TBasic 2 false.
Definition named_aT := TNamed (Some p_a) [84] TsNil ScPkg.

(* struct{A int `x`} vs struct{A int `y`} *)
Definition w_tag_x := TStruct (FsCons [65] false [120] (Some p_a) t_int FsNil).
Definition w_tag_y := TStruct (FsCons [65] false [121] (Some p_a) t_int FsNil).
Lemma struct_tag_witness : identb w_tag_x w_tag_y = false /\ type_name false H w_tag_x = type_name false H w_tag_y.
Proof. split; reflexivity. Qed.

(* struct{A} with A = T (alias) vs struct{T} *)
Definition w_emb_A := TStruct (FsCons [65] true [] (Some p_a) named_aT FsNil).
Definition w_emb_T := TStruct (FsCons [84] true [] (Some p_a) named_aT FsNil).
Lemma embedded_alias_witness : identb w_emb_A w_emb_T = false /\ type_name false H w_emb_A = type_name false H w_emb_T.
Proof. split; reflexivity. Qed.

(* interface{a.m(); x/a.n()} vs interface{a.m(); x/b.n()} *)
Definition w_if (p : str) := TIface (MsCons [109] (Some p_a) TsNil TsNil false (MsCons [110] (Some p) TsNil TsNil false MsNil)).
Lemma iface_second_pkg_witness : identb (w_if p_xa) (w_if p_xb) = false /\ type_name false H (w_if p_xa) = type_name false H (w_if p_xb).
Proof. split; reflexivity. Qed.

(* struct with unexported fields of two packages (go/types API only) *)
Definition w_st (p : str) := TStruct (FsCons [120] false [] (Some p_a) t_int (FsCons [121] false [] (Some p) t_int FsNil)).
Lemma struct_second_pkg_witness : identb (w_st p_xa) (w_st p_xb) = false /\ type_name fx H (w_st p_xa) = type_name fx H (w_st p_xb).
Proof. split; reflexivity. Qed.

(* position fallback vs dotted last path element: x/a . T .p5 *)
Definition w_pos := TNamed (Some p_xa) [84] TsNil (ScPos 5).
Definition w_dot := TNamed (Some (p_xa ++ [46; 84])) [112; 53] TsNil ScPkg.
Lemma scope_pos_dotted_path_witness : identb w_pos w_dot = false /\ type_name fx H w_pos = type_name fx H w_dot.
Proof. split; reflexivity. Qed.

(* the internal closure record as a parameter is named like its func type (PublicType, by design) *)
Definition w_sig := TFunc (TsCons [] t_int TsNil) TsNil false.
Definition w_clo := TStruct (FsCons s_f false [] None w_sig (FsCons s_data false [] None (TBasic 18 false) FsNil)).
Definition w_f1 := TFunc (TsCons [] w_clo TsNil) TsNil false.
Definition w_f2 := TFunc (TsCons [] w_sig TsNil) TsNil false.
Lemma closure_param_witness : identb w_f1 w_f2 = false /\ type_name fx H w_f1 = type_name fx H w_f2.
Proof. split; reflexivity. Qed.

(* one type, two names: G[byte] vs G[uint8] *)
Definition w_g (al : bool) := TNamed (Some p_xa) [71] (TsCons [] (TBasic 8 al) TsNil) ScPkg.
Lemma targ_alias_witness : identb (w_g true) (w_g false) = true /\ fst (type_name fx H (w_g true)) <> fst (type_name fx H (w_g false)).
Proof. split; [reflexivity|]. destruct fx; cbv; discriminate. Qed.
End Witness.
