(* C07 - facts about byte strings that the name proofs of C07 and C14 share.  A string free of a
   class of delimiters, followed by a delimiter, is cut off uniquely (split_first); decimal
   numerals are injective, non-empty digit strings (dec_inj, dec_head, dec_split); the dot after a
   package path is the first dot after the last slash (path_cut). *)
From LLGoV Require Import C07.Model.
From Coq Require Import DecimalN DecimalFacts.
Local Open Scope N_scope.

Definition headD (D : N -> bool) (r : str) : Prop :=
  match r with [] => True | c :: _ => D c = true end.
Definition free (D : N -> bool) (a : str) : Prop := forallb (fun c => negb (D c)) a = true.

Lemma free_app D a b : free D (a ++ b) <-> free D a /\ free D b.
Proof. unfold free. rewrite forallb_app, andb_true_iff. tauto. Qed.
Lemma free_cons D c a : free D (c :: a) <-> D c = false /\ free D a.
Proof. unfold free. cbn. rewrite andb_true_iff, negb_true_iff. tauto. Qed.
Lemma free_nil D : free D [].
Proof. reflexivity. Qed.

Lemma forallb_impl (P Q : N -> bool) a :
  (forall c, P c = true -> Q c = true) -> forallb P a = true -> forallb Q a = true.
Proof. rewrite !forallb_forall. auto. Qed.
Lemma forallb_free (P X : N -> bool) a :
  (forall c, P c = true -> X c = false) -> forallb P a = true -> free X a.
Proof. intros I. apply forallb_impl. intros c Pc. now rewrite (I c Pc). Qed.
Lemma forallb_notin (P : N -> bool) a c : forallb P a = true -> P c = false -> ~ In c a.
Proof. rewrite forallb_forall. intros F E I. rewrite (F _ I) in E. discriminate. Qed.

Lemma free_weaken (D D' : N -> bool) a :
  (forall c, D' c = true -> D c = true) -> free D a -> free D' a.
Proof.
  intros I. apply forallb_impl. intros c E. destruct (D' c) eqn:X; [now rewrite (I c X) in E|reflexivity].
Qed.

Lemma split_first D : forall a1 a2 r1 r2,
  free D a1 -> free D a2 -> headD D r1 -> headD D r2 ->
  a1 ++ r1 = a2 ++ r2 -> a1 = a2 /\ r1 = r2.
Proof.
  induction a1 as [|x a1 IH]; intros [|y a2] r1 r2 F1 F2 H1 H2 E; cbn in E.
  - auto.
  - subst r1. cbn in H1. apply free_cons in F2 as [Dy _]. congruence.
  - subst r2. cbn in H2. apply free_cons in F1 as [Dx _]. congruence.
  - injection E as -> E. apply free_cons in F1 as [_ F1]. apply free_cons in F2 as [_ F2].
    destruct (IH a2 r1 r2 F1 F2 H1 H2 E) as [-> ->]. auto.
Qed.

Lemma headD_cons D c r : D c = true -> headD D (c :: r).
Proof. auto. Qed.

Fixpoint bytes_uint (s : str) : Decimal.uint :=
  match s with
  | [] => Decimal.Nil
  | c :: r =>
      let u := bytes_uint r in
      match c with
      | 48 => Decimal.D0 u | 49 => Decimal.D1 u | 50 => Decimal.D2 u | 51 => Decimal.D3 u
      | 52 => Decimal.D4 u | 53 => Decimal.D5 u | 54 => Decimal.D6 u | 55 => Decimal.D7 u
      | 56 => Decimal.D8 u | _ => Decimal.D9 u
      end
  end.

Lemma bytes_uint_bytes u : bytes_uint (uint_bytes u) = u.
Proof. induction u; cbn [uint_bytes bytes_uint]; congruence. Qed.

Lemma uint_bytes_inj u v : uint_bytes u = uint_bytes v -> u = v.
Proof. intros E. now rewrite <- (bytes_uint_bytes u), E, bytes_uint_bytes. Qed.

Lemma dec_inj n m : dec n = dec m -> n = m.
Proof.
  unfold dec. intros E. apply uint_bytes_inj in E.
  rewrite <- (DecimalN.Unsigned.of_to n), <- (DecimalN.Unsigned.of_to m). now rewrite E.
Qed.

Lemma uint_bytes_digits u : forallb is_digit (uint_bytes u) = true.
Proof. induction u; cbn; auto. Qed.

Lemma dec_digits n : forallb is_digit (dec n) = true.
Proof. apply uint_bytes_digits. Qed.

Lemma dec_nonempty n : dec n <> [].
Proof.
  unfold dec. destruct n as [|p]; [discriminate|].
  cbn. intros E. pose proof (DecimalPos.Unsigned.to_uint_nonnil p) as NN.
  destruct (Pos.to_uint p); cbn in E; try discriminate. now apply NN.
Qed.

Lemma dec_head n : exists d ds, dec n = d :: ds /\ is_digit d = true.
Proof.
  pose proof (dec_digits n) as DG. pose proof (dec_nonempty n) as NE.
  destruct (dec n) as [|d ds]; [congruence|]. apply andb_true_iff in DG as [DG _]. eauto.
Qed.

Lemma dec_free D n : (forall c, is_digit c = true -> D c = false) -> free D (dec n).
Proof. intros I. exact (forallb_free _ _ _ I (dec_digits n)). Qed.

Lemma dec_split D n m r1 r2 :
  (forall c, is_digit c = true -> D c = false) -> headD D r1 -> headD D r2 ->
  dec n ++ r1 = dec m ++ r2 -> n = m /\ r1 = r2.
Proof.
  intros I H1 H2 E. destruct (split_first D (dec n) (dec m) r1 r2) as [A B]; auto using dec_free.
  split; auto. now apply dec_inj.
Qed.

Lemma is_digit_range c : is_digit c = true <-> 48 <= c <= 57.
Proof. unfold is_digit. rewrite andb_true_iff, !N.leb_le. tauto. Qed.

Definition is_slash (c : N) : bool := c =? 47.

Lemma nodot_cons c p ok :
  last_elem_nodot (c :: p) ok = last_elem_nodot p (if c =? 47 then true else if c =? 46 then false else ok).
Proof. cbn. destruct (c =? 47), (c =? 46); reflexivity. Qed.

(* once a dot is seen, only a later slash makes the path acceptable again *)
Lemma nodot_false p : free is_slash p -> last_elem_nodot p false = false.
Proof.
  induction p as [|c p IH]; intros F; [reflexivity|]. apply free_cons in F as [S F].
  rewrite nodot_cons. unfold is_slash in S. rewrite S. destruct (c =? 46); auto.
Qed.

(* p is a path without a dot in its last element, w contains no slash: the dot between them is
   the first dot after the last slash *)
Lemma path_cut : forall p1 p2 ok w1 w2,
  last_elem_nodot p1 ok = true -> last_elem_nodot p2 ok = true ->
  free is_slash w1 -> free is_slash w2 ->
  p1 ++ [c_dot] ++ w1 = p2 ++ [c_dot] ++ w2 -> p1 = p2 /\ w1 = w2.
Proof.
  induction p1 as [|x p1 IH]; intros [|y p2] ok w1 w2 L1 L2 F1 F2 E; cbn in E.
  - injection E as ->. auto.
  - exfalso. injection E as <- ->. apply free_app in F1 as [F1 _].
    exact (eq_true_false_abs _ L2 (nodot_false _ F1)).
  - exfalso. injection E as -> <-. apply free_app in F2 as [F2 _].
    exact (eq_true_false_abs _ L1 (nodot_false _ F2)).
  - injection E as -> E. rewrite nodot_cons in L1, L2.
    destruct (IH _ _ _ _ L1 L2 F1 F2 E) as [-> ->]. auto.
Qed.
