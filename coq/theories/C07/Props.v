(* C07 - property theorems only.  H is the hash used in names (base64 of SHA-256 in
   the implementation); its collision freedom is an explicit premise, never an axiom.
   type_name fx: fx = true is the code after the fixes of structHash (tags hashed when
   non-empty, embedded field rendered as - followed by its name), interfaceHash (method Id)
   and Implements (one findMethod per interface method); fx = false is the code before. *)
From LLGoV Require Import C07.Model C07.Proofs.
From Coq Require Import Sorted.
Local Open Scope N_scope.

(* identical types have one run-time name (hence one descriptor), provided type
   arguments are spelled canonically: no byte/rune spelling and no func / struct /
   interface type argument (those go through types.TypeString, see the refutation) *)
Theorem identical_same_name : forall (fx : bool) (H : str -> str) t1 t2,
  targs_ok t1 = true -> targs_ok t2 = true -> identb t1 t2 = true ->
  type_name fx H t1 = type_name fx H t2.
Proof.
  intros fx H t1 t2 A B E. destruct (proj1 (same_name_all fx H) t1 t2 E) as [X _]. exact (X A B false).
Qed.
Print Assumptions identical_same_name.

Theorem targ_alias_refuted : forall (fx : bool) (H : str -> str), exists t1 t2,
  identb t1 t2 = true /\ fst (type_name fx H t1) <> fst (type_name fx H t2).
Proof. intros fx H. exists (w_g true), (w_g false). apply targ_alias_witness. Qed.
Print Assumptions targ_alias_refuted.

(* equal names imply identical types, proved on the rendered byte strings of the FIXED
   code, for well-formed types: ASCII identifiers, import paths over letters digits
   - . _ ~ / + with no dot in the last element and outside the runtime patch prefix, fields
   of one struct literal declared in one package, struct tags over printable ASCII (where
   strconv.Quote escapes only the quote and the backslash), interface methods of any
   packages, and (partial) no generic instances: type arguments are not covered *)
Theorem type_name_injective_partial : forall (H : str -> str),
  (forall a b, H a = H b -> a = b) -> (forall x, forallb b64char (H x) = true) ->
  forall t1 t2, wf t1 = true -> wf t2 = true ->
  fst (type_name true H t1) = fst (type_name true H t2) -> identb t1 t2 = true.
Proof.
  intros H HI HA t1 t2 W1 W2 E. apply (proj1 (inj_all H HI HA) t1 t2 [] [] W1 W2 I I).
  unfold type_name in E. now rewrite !app_nil_r.
Qed.
Print Assumptions type_name_injective_partial.

(* the premises are satisfiable: the alphabet premise holds of the real hash, and wf
   admits nested composite types *)
Theorem sha256_b64_alphabet : forall x, forallb b64char (Sha256.sha256_b64 x) = true.
Proof. intros x. apply b64url_alpha. Qed.
Print Assumptions sha256_b64_alphabet.

Example wf_nontrivial :
  wf (TMap (TArray 3 (TNamed (Some [120;47;97]) [84] TsNil (ScLocal [0;1])))
           (TStruct (FsCons [65] false [106;115;111;110;58;34;97;34] (Some [97]) (TChan DRecv (TBasic 2 false))
                    (FsCons [65;108] true [] (Some [97]) (TPtr (TNamed (Some [97]) [84] TsNil ScPkg))
                    (FsCons [98] false [] (Some [97])
                       (TFunc (TsCons [120] (TSlice (TBasic 17 false)) TsNil) (TsCons [] (TNamed None s_error TsNil ScPkg) TsNil) true)
                    (FsCons [105] false [] (Some [97]) (w_if p_xb)
                       FsNil)))))) = true.
Proof. reflexivity. Qed.

(* the three defects that were repaired: before the fix (fx = false) the pair shares a name
   for every hash; after it (fx = true) the names differ for every collision-free hash *)
Theorem struct_tag_refuted : forall H : str -> str, exists t1 t2,
  identb t1 t2 = false /\ type_name false H t1 = type_name false H t2.
Proof. intros H. exists w_tag_x, w_tag_y. apply struct_tag_witness. Qed.
Print Assumptions struct_tag_refuted.

Theorem embedded_alias_refuted : forall H : str -> str, exists t1 t2,
  identb t1 t2 = false /\ type_name false H t1 = type_name false H t2.
Proof. intros H. exists w_emb_A, w_emb_T. apply embedded_alias_witness. Qed.
Print Assumptions embedded_alias_refuted.

Theorem iface_second_pkg_refuted : forall H : str -> str, exists t1 t2,
  identb t1 t2 = false /\ type_name false H t1 = type_name false H t2.
Proof. intros H. exists (w_if p_xa), (w_if p_xb). apply iface_second_pkg_witness. Qed.
Print Assumptions iface_second_pkg_refuted.

Theorem fixed_separates_witnesses : forall (H : str -> str),
  (forall a b, H a = H b -> a = b) -> (forall x, forallb b64char (H x) = true) ->
  fst (type_name true H w_tag_x) <> fst (type_name true H w_tag_y)
  /\ fst (type_name true H w_emb_A) <> fst (type_name true H w_emb_T)
  /\ fst (type_name true H (w_if p_xa)) <> fst (type_name true H (w_if p_xb)).
Proof.
  intros H HI HA.
  assert (S : forall t1 t2, wf t1 = true -> wf t2 = true -> identb t1 t2 = false ->
                            fst (type_name true H t1) <> fst (type_name true H t2)).
  { intros t1 t2 W1 W2 N E. apply (type_name_injective_partial H HI HA) in E; auto. congruence. }
  split; [|split]; apply S; reflexivity.
Qed.
Print Assumptions fixed_separates_witnesses.

(* guards that remain necessary, before and after the fix *)
Theorem struct_second_pkg_refuted : forall (fx : bool) (H : str -> str), exists t1 t2,
  identb t1 t2 = false /\ type_name fx H t1 = type_name fx H t2.
Proof. intros fx H. exists (w_st p_xa), (w_st p_xb). apply struct_second_pkg_witness. Qed.
Print Assumptions struct_second_pkg_refuted.

Theorem scope_pos_dotted_path_refuted : forall (fx : bool) (H : str -> str), exists t1 t2,
  identb t1 t2 = false /\ type_name fx H t1 = type_name fx H t2.
Proof. intros fx H. exists w_pos, w_dot. apply scope_pos_dotted_path_witness. Qed.
Print Assumptions scope_pos_dotted_path_refuted.

Theorem closure_param_refuted : forall (fx : bool) (H : str -> str), exists t1 t2,
  identb t1 t2 = false /\ type_name fx H t1 = type_name fx H t2.
Proof. intros fx H. exists w_f1, w_f2. apply closure_param_witness. Qed.
Print Assumptions closure_param_refuted.

(* ---- interface satisfaction: NewItab / findMethod / Implements ---- *)

(* for a method table sorted strictly by name (types.NewMethodSet order) with non-nil
   function pointers, NewItab yields a usable itab exactly when every interface method
   has a same-name same-type method *)
Theorem implements_iff_methodset : forall inter mt,
  StronglySorted mlt mt -> Forall (fun m => m_ifn m <> 0) mt -> inter <> [] ->
  (new_itab inter (Some mt) <> None <-> Forall (has mt) inter).
Proof. exact new_itab_iff. Qed.
Print Assumptions implements_iff_methodset.

(* and slot i holds the function of the unique method of that name: the one a direct
   call on the concrete value reaches *)
Theorem itab_slot_is_direct_method : forall inter mt slots,
  StronglySorted mlt mt -> new_itab inter (Some mt) = Some slots ->
  Forall2 (fun im fn => exists m, In m mt /\ matches im m /\ m_ifn m = fn
                                  /\ forall m', In m' mt -> m_name m' = im_name im -> m' = m) inter slots.
Proof. exact new_itab_slots. Qed.
Print Assumptions itab_slot_is_direct_method.

(* Implements after the fix (one findMethod per interface method): true exactly when the
   method set includes the interface, whatever the order of the interface methods *)
Theorem implements_fixed_iff_methodset : forall t v,
  StronglySorted mlt v -> (implements true t (Some v) = true <-> Forall (has v) t).
Proof. intros t v Sv. rewrite <- (all_found_iff t v Sv). destruct t; reflexivity. Qed.
Print Assumptions implements_fixed_iff_methodset.

(* before the fix: the one-pass scan is right only when BOTH lists are sorted by the same
   byte order of names *)
Theorem implements_scan_iff_sorted : forall t v,
  StronglySorted imlt t -> StronglySorted mlt v ->
  (implements false t (Some v) = true <-> Forall (has v) t).
Proof.
  intros t v St Sv. destruct t as [|tm t]; [split; [constructor|reflexivity]|].
  split; [apply impl_scan_sound|now apply impl_scan_complete].
Qed.
Print Assumptions implements_scan_iff_sorted.

(* ... and interface method lists come in go/types order (exported names first), which is
   not the byte order of pkgpath.name: the old scan rejects a type with all methods, the
   repaired one accepts it *)
Theorem implements_order_refuted : exists t v,
  StronglySorted mlt v /\ Forall (has v) t /\ implements false t (Some v) = false
  /\ new_itab t (Some v) <> None /\ implements true t (Some v) = true.
Proof.
  exists w_inter, w_table. destruct implements_order_witness as (A & B & C & E & F).
  repeat split; auto. rewrite E. discriminate.
Qed.
Print Assumptions implements_order_refuted.

(* method tables and interface method lists name an unexported method by its DECLARING package and
   its name, so findMethod / Implements match methods exactly by go/types sameId: a promoted method of
   another package keeps that package, and an own method m of the embedding package is a different name *)
Theorem method_table_name_identity : forall n p n2 p2,
  wf_ident n = true -> wf_path p = true -> wf_ident n2 = true -> wf_path p2 = true ->
  (table_name n (Some p) = table_name n2 (Some p2) <-> same_id n (Some p) n2 (Some p2) = true).
Proof. exact table_name_inj. Qed.
Print Assumptions method_table_name_identity.

Example promoted_method_name :
  table_name [109] (Some [120;47;114]) <> table_name [109] (Some [109;97;105;110])
  /\ table_name [80;117;98] (Some [120;47;114]) = table_name [80;117;98] (Some [109;97;105;110]).
Proof. split; [discriminate|reflexivity]. Qed.

(* a matched method with a nil function pointer in slot 0 reads as not implemented *)
Theorem itab_nil_ifn_slot0_refuted : exists inter mt,
  StronglySorted mlt mt /\ Forall (has mt) inter /\ new_itab inter (Some mt) = None.
Proof. exists [IMeth [70] 1], [Meth [70] 1 0]. apply itab_nil_slot0_witness. Qed.
Print Assumptions itab_nil_ifn_slot0_refuted.

Example itab_nontrivial :
  new_itab [IMeth [66] 2; IMeth [65] 1] (Some [Meth [65] 1 7; Meth [66] 2 8; Meth [67] 1 9]) = Some [8; 7].
Proof. reflexivity. Qed.
