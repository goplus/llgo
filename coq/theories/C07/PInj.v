(* C07 - equal names imply identical types (string-level proof) for well-formed
   types without generic instances.  The rendering is a prefix code: the kind of a
   type can be read off the head of its name ([shape]), and every component is
   followed by a delimiter that cannot occur in it. *)
From LLGoV Require Import C07.Model C07.PItab C07.PStr C07.PName.
Local Open Scope N_scope.

(* delimiters that can follow a type name inside a rendering: ] newline and space *)
Definition D (c : N) : bool := (c =? 93) || (c =? 10) || (c =? 32).
Definition DD (c : N) : bool := (c =? 36) || D c.
Definition Ddot (c : N) : bool := c =? 46.
Definition Dslash (c : N) : bool := c =? 47.
(* characters that never occur in a package path, .struct$ / .iface$, or a hash *)
Definition X4 (c : N) : bool := (c =? 42) || (c =? 91) || (c =? 32) || (c =? 60).
Definition b64char (c : N) : bool := ident_char c || (c =? 45).

Lemma eqb_false_of (P : N -> bool) d c : P d = false -> P c = true -> (c =? d) = false.
Proof. intros Pd Pc. apply N.eqb_neq. intros ->. congruence. Qed.

Lemma digit_ident c : is_digit c = true -> ident_char c = true.
Proof. unfold ident_char. intros ->. now rewrite orb_true_r. Qed.
Lemma ident_path c : ident_char c = true -> path_char c = true.
Proof. unfold path_char. now intros ->. Qed.
Lemma b64_path c : b64char c = true -> path_char c = true.
Proof.
  unfold b64char, path_char. intros E.
  apply orb_true_iff in E as [-> | ->]; [reflexivity|now rewrite orb_true_r].
Qed.
Lemma path_notDD c : path_char c = true -> DD c = false.
Proof. intros Pc. unfold DD, D. now rewrite !(eqb_false_of path_char _ c) by first [exact Pc|reflexivity]. Qed.
Lemma path_notX4 c : path_char c = true -> X4 c = false.
Proof. intros Pc. unfold X4. now rewrite !(eqb_false_of path_char _ c) by first [exact Pc|reflexivity]. Qed.
Lemma path_notD c : path_char c = true -> D c = false.
Proof. intros Pc. apply path_notDD, orb_false_iff in Pc. apply Pc. Qed.
Lemma digit_notD c : is_digit c = true -> D c = false.
Proof. intros E. apply path_notD, ident_path, digit_ident, E. Qed.
Lemma ident_notdot c : ident_char c = true -> Ddot c = false.
Proof. exact (eqb_false_of ident_char 46 c eq_refl). Qed.
Lemma digit_notdot c : is_digit c = true -> Ddot c = false.
Proof. intros E. apply ident_notdot, digit_ident, E. Qed.
Lemma ident_notslash c : ident_char c = true -> is_slash c = false.
Proof. exact (eqb_false_of ident_char 47 c eq_refl). Qed.

Lemma idents_path a : forallb ident_char a = true -> forallb path_char a = true.
Proof. apply forallb_impl, ident_path. Qed.
Lemma idents_noslash a : forallb ident_char a = true -> free is_slash a.
Proof. apply forallb_free, ident_notslash. Qed.
Lemma path_freeD a : forallb path_char a = true -> free D a.
Proof. apply forallb_free, path_notD. Qed.

Lemma wf_ident_chars n : wf_ident n = true -> forallb ident_char n = true.
Proof. destruct n; [discriminate|]. intros E. now apply andb_true_iff in E. Qed.

Lemma wf_path_chars p : wf_path p = true ->
  forallb path_char p = true /\ p <> [] /\ last_elem_nodot p true = true /\ path_of p = p.
Proof.
  unfold wf_path. intros E. repeat (apply andb_true_iff in E as [E ?]).
  repeat split; auto.
  - destruct p; discriminate.
  - unfold path_of. destruct (strip_prefix s_patch p); [discriminate|reflexivity].
Qed.

Inductive kind := KPtr | KSlice | KArray | KMap | KChan (d : dir) | KHashed | KAtom (dotted : bool).

Fixpoint prefixb (p s : str) : bool :=
  match p, s with
  | [], _ => true
  | a :: p', b :: s' => (a =? b) && prefixb p' s'
  | _ :: _, [] => false
  end.

(* x occurs in s before any character that cannot be part of a path *)
Fixpoint occurs_first (x : N) (s : str) : bool :=
  match s with
  | [] => false
  | c :: r => (c =? x) || path_char c && occurs_first x r
  end.

(* hashed names are  prefix $ hash  with a prefix of path characters; the names of basic
   and named types have no $, and a dot exactly when they carry a package path.
   The tests are ordered: [] before [ (slice before array), and a both-way channel is
   chan followed by a space, so that chan<- is not taken for it *)
Definition shape (s : str) : kind :=
  if occurs_first 36 s then KHashed
  else if prefixb [42] s then KPtr else if prefixb [91; 93] s then KSlice
  else if prefixb [91] s then KArray else if prefixb s_map s then KMap
  else if prefixb (s_chan ++ [32]) s then KChan DBoth
  else if prefixb (s_chansend ++ [32]) s then KChan DSend
  else if prefixb s_recvchan s then KChan DRecv
  else KAtom (occurs_first 46 s).

Definition shape_of (t : ty) : kind :=
  match t with
  | TPtr _ => KPtr | TSlice _ => KSlice | TArray _ _ => KArray | TMap _ _ => KMap
  | TChan d _ => KChan d
  | TFunc _ _ _ | TStruct _ => KHashed
  | TIface MsNil => KAtom false | TIface _ => KHashed
  | TBasic _ _ => KAtom false
  | TNamed pkg _ _ _ => KAtom (is_some pkg)
  end.

Lemma occurs_hit x a r : forallb path_char a = true -> occurs_first x (a ++ x :: r) = true.
Proof.
  induction a as [|c a IH]; cbn [app occurs_first forallb]; [now rewrite N.eqb_refl|].
  intros E. apply andb_true_iff in E as [-> E]. rewrite IH by exact E. apply orb_true_r.
Qed.

Lemma occurs_miss x a r :
  ~ In x a -> D x = false -> headD D r -> occurs_first x (a ++ r) = false.
Proof.
  intros NI Dx HR. induction a as [|c a IH]; cbn [app occurs_first].
  - destruct r as [|c r]; [reflexivity|]. cbn [occurs_first]. cbn in HR.
    rewrite (eqb_false_of D x c Dx HR). destruct (path_char c) eqn:P; [|reflexivity].
    apply path_notD in P. congruence.
  - rewrite IH by (intros I; apply NI; now right). rewrite andb_false_r, orb_false_r.
    apply N.eqb_neq. intros ->. apply NI. now left.
Qed.

Fixpoint nodupb (l : list str) : bool :=
  match l with [] => true | x :: r => negb (existsb (str_eqb x) r) && nodupb r end.
Lemma nodupb_NoDup l : nodupb l = true -> NoDup l.
Proof.
  induction l as [|x r IH]; cbn [nodupb]; [constructor|]. intros E. apply andb_true_iff in E as [A B].
  constructor; auto. intros I. apply negb_true_iff in A.
  assert (existsb (str_eqb x) r = true) by (apply existsb_exists; exists x; split; [exact I|apply str_eqb_refl]).
  congruence.
Qed.

Definition s_anytok : str := [97; 110; 121].

Lemma builtin_names_nodup : NoDup (s_anytok :: s_error :: basic_names).
Proof. apply nodupb_NoDup. reflexivity. Qed.

Definition wf_kind (k : N) : bool := (1 <=? k) && (k <=? 18).

Lemma basic_ix k : wf_kind k = true -> (N.to_nat k < length basic_names)%nat.
Proof.
  intros E. apply andb_true_iff in E as [_ B]. apply N.leb_le in B.
  change (length basic_names) with 19%nat. lia.
Qed.

Lemma basic_name_in k : wf_kind k = true -> In (basic_name k) basic_names.
Proof. intros E. apply nth_In, basic_ix, E. Qed.

Lemma basic_name_ident k : wf_kind k = true -> forallb ident_char (basic_name k) = true.
Proof.
  intros E. apply basic_name_in in E. revert E. apply forallb_forall. reflexivity.
Qed.

Lemma basic_name_inj k1 k2 : wf_kind k1 = true -> wf_kind k2 = true ->
  basic_name k1 = basic_name k2 -> k1 = k2.
Proof.
  intros E1 E2 E. apply N2Nat.inj. pose proof builtin_names_nodup as ND.
  apply NoDup_cons_iff in ND as [_ ND]. apply NoDup_cons_iff in ND as [_ ND].
  apply (proj1 (NoDup_nth _ []) ND); auto using basic_ix.
Qed.

Lemma basic_name_not k s : wf_kind k = true -> s = s_anytok \/ s = s_error -> basic_name k <> s.
Proof.
  intros E S EQ. apply basic_name_in in E. rewrite EQ in E. pose proof builtin_names_nodup as ND.
  apply NoDup_cons_iff in ND as [N1 ND]. apply NoDup_cons_iff in ND as [N2 _].
  destruct S as [-> | ->]; [apply N1; now right|now apply N2].
Qed.

Lemma wf_named pkg n ta sc : wf (TNamed pkg n ta sc) = true ->
  ta = TsNil /\ match pkg with
                | Some p => wf_path p = true /\ wf_ident n = true /\ wf_scope sc = true
                | None => n = s_error /\ sc = ScPkg
                end.
Proof.
  cbn [wf]. destruct pkg as [p|], ta; try discriminate.
  - intros E. apply andb_true_iff in E as [E C]. apply andb_true_iff in E as [A B]. auto.
  - destruct sc; try discriminate. intros E. apply str_eqb_eq in E. auto.
Qed.

Lemma wf_fields_cons P n emb tag pkg t r : wf_fields P (FsCons n emb tag pkg t r) = true ->
  pkg = Some P /\ wf t = true /\ wf_ident n = true /\ wf_fields P r = true.
Proof.
  cbn [wf_fields]. rewrite !andb_true_iff. intros ((((A & _) & B) & C) & E).
  apply ostr_eqb_eq in A. auto.
Qed.

Lemma wf_methods_cons n pkg ps rs v r : wf_methods (MsCons n pkg ps rs v r) = true ->
  (exists p, pkg = Some p /\ wf_path p = true) /\ wf_ident n = true
  /\ wf_tys ps = true /\ wf_tys rs = true /\ wf_methods r = true.
Proof.
  cbn [wf_methods]. rewrite !andb_true_iff. intros ((((A & B) & C) & E) & F).
  destruct pkg as [p|]; [|discriminate]. eauto 10.
Qed.

Lemma wf_struct_parts fs : wf (TStruct fs) = true ->
  wf_fields (struct_pkg fs) fs = true /\ (fs = FsNil \/ wf_path (struct_pkg fs) = true).
Proof.
  cbn [wf]. intros E. apply andb_true_iff in E as [A B]. split; auto.
  apply orb_true_iff in B as [B|B]; auto. apply andb_true_iff in B as [_ B]. destruct fs; auto; discriminate.
Qed.

Lemma is_closure_wf fs P : wf_fields P fs = true -> is_closure fs = false.
Proof.
  destruct fs as [|n1 e1 g1 p1 t1 r]; [reflexivity|]. intros E.
  apply wf_fields_cons in E as (_ & _ & Wn & _).
  destruct r as [|n2 e2 g2 p2 t2 [|]]; try reflexivity. cbn [is_closure].
  destruct (str_eqb n1 s_f) eqn:N1; [|now rewrite andb_false_r].
  apply str_eqb_eq in N1. subst. discriminate.
Qed.

Lemma ids_str_cons i a : ids_str (i :: a) = c_dot :: dec i ++ ids_str a.
Proof. reflexivity. Qed.

Lemma dec_sep c n m r1 r2 : D c = true ->
  dec n ++ c :: r1 = dec m ++ c :: r2 -> n = m /\ r1 = r2.
Proof.
  intros Dc E. apply (dec_split D) in E as [-> E]; [|apply digit_notD|exact Dc|exact Dc].
  injection E as E. auto.
Qed.

Lemma scope_str_chars (P : N -> bool) p sc :
  P c_dot = true -> P c_p = true -> (forall c, is_digit c = true -> P c = true) ->
  forallb P (scope_str (Some p) sc) = true.
Proof.
  intros Pd Pp Pn. assert (DG : forall n, forallb P (dec n) = true).
  { intros n. eapply forallb_impl; [exact Pn|apply dec_digits]. }
  destruct sc as [|ids|x]; cbn [scope_str]; [reflexivity| |].
  - induction ids as [|i r IH]; [reflexivity|]. rewrite ids_str_cons. cbn [forallb].
    now rewrite forallb_app, Pd, DG, IH.
  - destruct (x =? 0); [reflexivity|]. cbn [app forallb]. now rewrite Pd, Pp, DG.
Qed.

Lemma ids_str_head a : headD Ddot (ids_str a).
Proof. destruct a; cbn; auto. Qed.

Lemma scope_str_head p sc : headD Ddot (scope_str (Some p) sc).
Proof. destruct sc as [|ids|x]; cbn; auto using ids_str_head. destruct (x =? 0); cbn; auto. Qed.

Lemma ids_str_inj a : forall b, ids_str a = ids_str b -> a = b.
Proof.
  induction a as [|i a IH]; intros [|j b] E; auto; try discriminate.
  rewrite !ids_str_cons in E. injection E as E.
  apply (dec_split Ddot) in E as [-> E]; auto using digit_notdot, ids_str_head. f_equal. auto.
Qed.

(* the index list of a local scope starts  . digit , the position fallback  . p *)
Lemma ids_str_not_pos a x : ids_str a <> [c_dot; c_p] ++ dec x.
Proof.
  destruct a as [|i a]; [discriminate|]. rewrite ids_str_cons.
  destruct (dec_head i) as (d & ds & -> & DG). intros E. injection E as -> _. discriminate.
Qed.

Lemma scope_str_inj p p' sc1 sc2 : wf_scope sc1 = true -> wf_scope sc2 = true ->
  scope_str (Some p) sc1 = scope_str (Some p') sc2 -> sc1 = sc2.
Proof.
  intros W1 W2 E. destruct sc1 as [|a|x], sc2 as [|b|y]; cbn [wf_scope scope_str] in *.
  - reflexivity.
  - (* package, local *) destruct b; discriminate.
  - (* package, position *) apply negb_true_iff in W2. rewrite W2 in E. discriminate E.
  - (* local, package *) destruct a; discriminate.
  - (* local, local *) f_equal. now apply ids_str_inj.
  - (* local, position *) apply negb_true_iff in W2. rewrite W2 in E. now apply ids_str_not_pos in E.
  - (* position, package *) apply negb_true_iff in W1. rewrite W1 in E. discriminate E.
  - (* position, local *) apply negb_true_iff in W1. rewrite W1 in E. symmetry in E. now apply ids_str_not_pos in E.
  - (* position, position *) apply negb_true_iff in W1, W2. rewrite W1, W2 in E.
    injection E as E. f_equal. now apply dec_inj.
Qed.

Lemma identb_named_refl p n sc : identb (TNamed (Some p) n TsNil sc) (TNamed (Some p) n TsNil sc) = true.
Proof.
  cbn. unfold ostr_eqb. cbn. rewrite !str_eqb_refl. cbn.
  rewrite andb_true_r. destruct sc; cbn; auto; [apply str_eqb_iff; reflexivity|apply N.eqb_refl].
Qed.

Definition named_tok (p n : str) (sc : scope) : str := path_of p ++ [c_dot] ++ (n ++ scope_str (Some p) sc).

Lemma named_tok_path p n sc : wf_path p = true -> wf_ident n = true ->
  forallb path_char (named_tok p n sc) = true.
Proof.
  intros WP WI. destruct (wf_path_chars _ WP) as (PC & _ & _ & PO). unfold named_tok.
  rewrite PO, !forallb_app, PC, (idents_path _ (wf_ident_chars _ WI)).
  now rewrite scope_str_chars by (reflexivity || apply (fun c E => ident_path c (digit_ident c E))).
Qed.

Lemma named_tok_inj p n sc p' n' sc' :
  wf_path p = true -> wf_ident n = true -> wf_scope sc = true ->
  wf_path p' = true -> wf_ident n' = true -> wf_scope sc' = true ->
  named_tok p n sc = named_tok p' n' sc' -> p = p' /\ n = n' /\ sc = sc'.
Proof.
  intros Wp Wn Ws Wp' Wn' Ws' E. unfold named_tok in E.
  destruct (wf_path_chars _ Wp) as (_ & _ & ND & PO). destruct (wf_path_chars _ Wp') as (_ & _ & ND' & PO').
  rewrite PO, PO' in E.
  assert (NS : forall q m s, wf_ident m = true -> free is_slash (m ++ scope_str (Some q) s)).
  { intros q m s Wm. apply free_app. split; [exact (idents_noslash _ (wf_ident_chars _ Wm))|].
    apply scope_str_chars; try reflexivity. intros c E'. now rewrite ident_notslash by now apply digit_ident. }
  apply (path_cut _ _ true) in E as [-> E]; auto.
  apply (split_first Ddot) in E as [-> E]; auto using scope_str_head.
  - apply scope_str_inj in E; auto.
  - exact (forallb_free _ _ _ ident_notdot (wf_ident_chars _ Wn)).
  - exact (forallb_free _ _ _ ident_notdot (wf_ident_chars _ Wn')).
Qed.

Lemma method_id_some n p : p <> [] ->
  method_id n (Some p) = if exported n then n else p ++ [c_dot] ++ n.
Proof. unfold method_id. destruct p; [congruence|reflexivity]. Qed.

Lemma method_id_path n p : wf_ident n = true -> wf_path p = true ->
  forallb path_char (method_id n (Some p)) = true.
Proof.
  intros Wn Wp. pose proof (idents_path _ (wf_ident_chars _ Wn)) as IC.
  destruct (wf_path_chars _ Wp) as (PC & NE & _). rewrite method_id_some by exact NE.
  destruct (exported n); [exact IC|]. now rewrite !forallb_app, PC, IC.
Qed.

Lemma method_id_inj n p n2 p2 : wf_ident n = true -> wf_path p = true -> wf_ident n2 = true -> wf_path p2 = true ->
  method_id n (Some p) = method_id n2 (Some p2) -> same_id n (Some p) n2 (Some p2) = true.
Proof.
  intros Wn Wp Wn2 Wp2 E. pose proof (wf_ident_chars _ Wn) as IC. pose proof (wf_ident_chars _ Wn2) as IC2.
  destruct (wf_path_chars _ Wp) as (_ & NE & ND & _). destruct (wf_path_chars _ Wp2) as (_ & NE2 & ND2 & _).
  rewrite !method_id_some in E by assumption. unfold same_id.
  destruct (exported n) eqn:X, (exported n2) eqn:X2.
  - subst. now rewrite str_eqb_refl.
  - exfalso. apply (forallb_notin _ _ c_dot IC eq_refl). rewrite E. apply in_or_app. right. now left.
  - exfalso. apply (forallb_notin _ _ c_dot IC2 eq_refl). rewrite <- E. apply in_or_app. right. now left.
  - apply (path_cut _ _ true) in E as [-> ->]; auto using idents_noslash.
    rewrite str_eqb_refl. apply orb_true_iff. right. apply str_eqb_refl.
Qed.

Lemma table_name_method_id n p : wf_path p = true -> table_name n (Some p) = method_id n (Some p).
Proof.
  intros W. destruct (wf_path_chars _ W) as (_ & NE & _ & PO). unfold table_name, full_name.
  now rewrite PO, method_id_some by exact NE.
Qed.
Lemma table_name_inj n p n2 p2 : wf_ident n = true -> wf_path p = true -> wf_ident n2 = true -> wf_path p2 = true ->
  (table_name n (Some p) = table_name n2 (Some p2) <-> same_id n (Some p) n2 (Some p2) = true).
Proof.
  intros Wn Wp Wn2 Wp2. rewrite !table_name_method_id by assumption. split.
  - now apply method_id_inj.
  - intros E. apply same_id_name in E as [-> E]. now apply method_id_same.
Qed.

Lemma esc_split t1 : forall t2 r1 r2,
  flat_map esc_byte t1 ++ 34 :: r1 = flat_map esc_byte t2 ++ 34 :: r2 -> t1 = t2 /\ r1 = r2.
Proof.
  induction t1 as [|a t1 IH]; intros [|c t2] r1 r2 E; cbn [flat_map app] in E.
  - injection E as E. auto.
  - exfalso. unfold esc_byte in E. destruct ((c =? 34) || (c =? 92)) eqn:X; cbn in E; [discriminate|].
    injection E as <- _. discriminate.
  - exfalso. unfold esc_byte in E. destruct ((a =? 34) || (a =? 92)) eqn:X; cbn in E; [discriminate|].
    injection E as -> _. discriminate.
  - unfold esc_byte in E.
    destruct ((a =? 34) || (a =? 92)) eqn:X, ((c =? 34) || (c =? 92)) eqn:Y; cbn in E.
    + injection E as -> E. destruct (IH _ _ _ E) as [-> ->]. auto.
    + exfalso. injection E as <- _. discriminate.
    + exfalso. injection E as -> _. discriminate.
    + injection E as -> E. destruct (IH _ _ _ E) as [-> ->]. auto.
Qed.

Lemma quote_split t1 t2 r1 r2 : quote_tag t1 ++ r1 = quote_tag t2 ++ r2 -> t1 = t2 /\ r1 = r2.
Proof.
  unfold quote_tag. rewrite <- !app_assoc. cbn [app]. intros E. injection E as E. now apply esc_split in E.
Qed.

Lemma tagpart_split tag tag2 X1 X2 :
  (if negb (is_nil tag) then [c_sp] ++ quote_tag tag else []) ++ [c_nl] ++ X1 =
  (if negb (is_nil tag2) then [c_sp] ++ quote_tag tag2 else []) ++ [c_nl] ++ X2 -> tag = tag2 /\ X1 = X2.
Proof.
  destruct tag as [|a tg], tag2 as [|a2 tg2]; cbn [is_nil negb]; intros E; try discriminate E.
  - injection E as E. auto.
  - rewrite <- !app_assoc in E. apply app_inv_head, quote_split in E as [-> E]. injection E as E. auto.
Qed.

Definition field_head (emb : bool) (n : str) : str := if emb then c_dash :: n else n.

Lemma field_head_free emb n : wf_ident n = true -> free D (field_head emb n).
Proof.
  intros W. apply wf_ident_chars in W. apply path_freeD.
  apply idents_path in W. now destruct emb; [cbn; rewrite W|].
Qed.

Lemma field_head_inj emb n emb2 n2 : wf_ident n = true -> wf_ident n2 = true ->
  field_head emb n = field_head emb2 n2 -> emb = emb2 /\ n = n2.
Proof.
  intros W W2 E. destruct emb, emb2; cbn in E; subst; auto.
  - injection E as ->. auto.
  - apply andb_true_iff in W2 as [_ W2]. discriminate.
  - apply andb_true_iff in W as [_ W]. discriminate.
Qed.

Lemma same_id_intro n p q : (exported n = false -> p = q) -> same_id n p n q = true.
Proof.
  intros E. unfold same_id. rewrite str_eqb_refl. destruct (exported n); [reflexivity|].
  rewrite E by reflexivity. destruct q; [apply str_eqb_refl|reflexivity].
Qed.

Fixpoint any_unexp (fs : fields) : bool :=
  match fs with FsNil => false | FsCons n _ _ _ _ r => negb (exported n) || any_unexp r end.
Lemma fields_pkg_acc fs : forall a, a <> [] -> fields_pkg a fs = a.
Proof. induction fs; intros a NE; cbn; auto. destruct a; [congruence|]. apply IHfs. discriminate. Qed.
Lemma fields_pkg_wf P fs : P <> [] -> wf_fields P fs = true ->
  fields_pkg [] fs = if any_unexp fs then P else [].
Proof.
  intros NE. induction fs as [|n e g p t r IH]; [reflexivity|]. intros E.
  apply wf_fields_cons in E as (-> & _ & _ & E). cbn [fields_pkg any_unexp].
  destruct (exported n); cbn [negb orb]; auto. apply fields_pkg_acc; auto.
Qed.

Lemma methods_pkg_path ms : wf_methods ms = true ->
  forall acc, forallb path_char acc = true -> forallb path_char (methods_pkg acc ms) = true.
Proof.
  induction ms as [|n p ps rs v r IH]; intros W acc A; [exact A|].
  apply wf_methods_cons in W as ((q & -> & Wq) & _ & _ & _ & W).
  cbn [methods_pkg]. apply IH; auto.
  destruct acc; auto. destruct (exported n); auto. apply (wf_path_chars _ Wq).
Qed.

Section Inj.
Variable H : str -> str.
Hypothesis H_inj : forall a b, H a = H b -> a = b.
Hypothesis H_alpha : forall x, forallb b64char (H x) = true.

(* the name under the repaired hashes (fx = true), as TypeName itself renders it (pm = false:
   PublicType has not been applied by the caller) *)
Notation nm t := (fst (tn true H false t)).

Lemma H_path x : forallb path_char (H x) = true.
Proof. exact (forallb_impl _ _ _ b64_path (H_alpha x)). Qed.
Lemma H_freeD x : free D (H x). Proof. exact (path_freeD _ (H_path x)). Qed.
Lemma H_freeDD x : free DD (H x).
Proof. exact (forallb_free _ _ _ path_notDD (H_path x)). Qed.
Lemma H_freeX4 x : free X4 (H x).
Proof. exact (forallb_free _ _ _ path_notX4 (H_path x)). Qed.

Lemma tn_true_wf t : wf t = true -> tn true H true t = tn true H false t.
Proof.
  destruct t; try reflexivity. intros E. apply wf_struct_parts in E as [E _].
  rewrite !tn_struct. rewrite (is_closure_wf _ _ E). reflexivity.
Qed.

Definition func_text ps rs v : str :=
  func_hdr (tys_len ps) (tys_len rs) v ++ tuple_lines true H ps ++ tuple_lines true H rs.
Definition struct_text fs : str := s_struct ++ [c_sp] ++ dec (fields_len fs) ++ [c_nl] ++ field_lines true H fs.
Definition iface_text ms : str := s_interface ++ [c_sp] ++ dec (methods_len ms) ++ [c_nl] ++ method_lines true H ms.

Definition s_llgo_struct : str := [95;108;108;103;111;95;115;116;114;117;99;116].
Definition s_dotstruct : str := [46;115;116;114;117;99;116].
Definition s_llgo_iface : str := [95;108;108;103;111;95;105;102;97;99;101].
Definition s_dotiface : str := [46;105;102;97;99;101].
Definition s_llgo_func : str := [95;108;108;103;111;95;102;117;110;99].

(* a hashed name is  hpre t $ H (htext t) *)
Definition hpre_struct fs : str :=
  if any_unexp fs then struct_pkg fs ++ s_dotstruct else s_llgo_struct.
Definition hpre_iface ms : str :=
  match methods_pkg [] ms with [] => s_llgo_iface | p => p ++ s_dotiface end.
Definition hpre (t : ty) : str :=
  match t with TStruct fs => hpre_struct fs | TIface ms => hpre_iface ms | _ => s_llgo_func end.
Definition htext (t : ty) : str :=
  match t with
  | TFunc ps rs v => func_text ps rs v | TStruct fs => struct_text fs | TIface ms => iface_text ms
  | _ => []
  end.

Lemma nm_struct fs : wf (TStruct fs) = true ->
  nm (TStruct fs) = hpre_struct fs ++ [36] ++ H (struct_text fs).
Proof.
  intros W. destruct (wf_struct_parts _ W) as [WF WP].
  rewrite tn_struct. rewrite (is_closure_wf _ _ WF). cbn [andb]. cbn zeta. unfold hpre_struct.
  destruct WP as [-> | WP]; [reflexivity|].
  destruct (wf_path_chars _ WP) as (_ & NE & _).
  rewrite (fields_pkg_wf _ _ NE WF). fold (struct_text fs).
  destruct (any_unexp fs).
  - destruct (struct_pkg fs); [congruence|]. cbn. rewrite <- app_assoc. reflexivity.
  - reflexivity.
Qed.

Lemma nm_iface ms : ms <> MsNil ->
  nm (TIface ms) = hpre_iface ms ++ [36] ++ H (iface_text ms).
Proof.
  intros NN. rewrite tn_iface. unfold hpre_iface. destruct ms as [|n p ps rs v r]; [congruence|].
  cbn zeta. fold (iface_text (MsCons n p ps rs v r)).
  destruct (methods_pkg [] (MsCons n p ps rs v r)) as [|c P']; [reflexivity|]. cbn [fst].
  change s_diface with (s_dotiface ++ [36]). now rewrite <- !app_assoc.
Qed.

Lemma nm_hashed t : wf t = true -> shape_of t = KHashed ->
  nm t = hpre t ++ [36] ++ H (htext t) /\ forallb path_char (hpre t) = true.
Proof.
  intros W S. destruct t; try discriminate S; cbn [hpre htext].
  - split; reflexivity.
  - split; [now apply nm_struct|]. unfold hpre_struct. destruct (any_unexp fs) eqn:U; [|reflexivity].
    destruct (wf_struct_parts _ W) as [_ [-> | WP]]; [discriminate|].
    rewrite forallb_app. now rewrite (proj1 (wf_path_chars _ WP)).
  - destruct ms as [|n p ps rs v r]; [discriminate|]. split; [now apply nm_iface|].
    unfold hpre_iface. cbn [wf] in W. pose proof (methods_pkg_path _ W [] eq_refl) as PC.
    destruct (methods_pkg [] (MsCons n p ps rs v r)); [reflexivity|]. now rewrite forallb_app, PC.
Qed.

Definition btok (t : ty) : str :=
  match t with TBasic k _ => basic_name k | TNamed _ n _ _ => n | _ => s_anytok end.

Lemma builtin_cases t : wf t = true -> shape_of t = KAtom false ->
  (exists k al, t = TBasic k al /\ wf_kind k = true) \/ t = TNamed None s_error TsNil ScPkg \/ t = TIface MsNil.
Proof.
  intros W S. destruct t; try discriminate S.
  - left. eauto.
  - destruct pkg; [discriminate S|]. destruct (wf_named _ _ _ _ W) as (-> & -> & ->). auto.
  - destruct ms; [auto|discriminate S].
Qed.

Lemma nm_builtin t : wf t = true -> shape_of t = KAtom false ->
  nm t = s_llgo ++ btok t /\ forallb ident_char (btok t) = true.
Proof.
  intros W S. destruct (builtin_cases t W S) as [(k & al & -> & Wk)|[-> | ->]]; split; try reflexivity.
  now apply basic_name_ident.
Qed.

Lemma nm_named t : wf t = true -> shape_of t = KAtom true ->
  exists p n sc, t = TNamed (Some p) n TsNil sc /\ nm t = s_llgo ++ named_tok p n sc
                 /\ wf_path p = true /\ wf_ident n = true /\ wf_scope sc = true.
Proof.
  intros W S. destruct t; try discriminate S; [|destruct ms; discriminate S].
  destruct pkg as [p|]; [|discriminate S]. destruct (wf_named _ _ _ _ W) as (-> & Wp & Wn & Ws).
  exists p, name, sc. auto.
Qed.

Lemma atom_path t b : wf t = true -> shape_of t = KAtom b -> forallb path_char (nm t) = true.
Proof.
  intros W S. destruct b.
  - destruct (nm_named _ W S) as (p & n & sc & _ & -> & Wp & Wn & _).
    rewrite forallb_app. now rewrite named_tok_path.
  - destruct (nm_builtin _ W S) as [-> IC]. rewrite forallb_app.
    now rewrite (idents_path _ IC).
Qed.

Lemma shape_llgo x : shape (s_llgo ++ x) =
  if occurs_first 36 x then KHashed else KAtom (occurs_first 46 x).
Proof. reflexivity. Qed.

Lemma shape_hashed t r : wf t = true -> shape_of t = KHashed -> shape (nm t ++ r) = KHashed.
Proof.
  intros W S. destruct (nm_hashed _ W S) as [-> PC]. rewrite <- !app_assoc. cbn [app]. unfold shape.
  now rewrite (occurs_hit 36 _ _ PC).
Qed.

Lemma shape_atom t r b : wf t = true -> headD D r -> shape_of t = KAtom b -> shape (nm t ++ r) = KAtom b.
Proof.
  intros W HR S.
  assert (M : forall a, forallb path_char a = true -> occurs_first 36 (a ++ r) = false).
  { intros a PC. apply occurs_miss; auto. now apply (forallb_notin _ _ _ PC). }
  destruct b.
  - destruct (nm_named _ W S) as (p & n & sc & _ & -> & Wp & Wn & _).
    rewrite <- app_assoc, shape_llgo, M by now apply named_tok_path.
    destruct (wf_path_chars _ Wp) as (PC & _ & _ & PO).
    unfold named_tok. rewrite PO, <- !app_assoc. cbn [app]. now rewrite occurs_hit.
  - destruct (nm_builtin _ W S) as [-> IC].
    rewrite <- app_assoc, shape_llgo, M by exact (idents_path _ IC).
    rewrite occurs_miss; auto. now apply (forallb_notin _ _ _ IC).
Qed.

Lemma nm_shape t r : wf t = true -> headD D r -> shape (nm t ++ r) = shape_of t.
Proof.
  intros W HR. destruct t.
  - now apply shape_atom.
  - now apply shape_atom.
  - reflexivity.
  - reflexivity.
  - cbn [tn fst]. destruct (dec_head n) as (d & ds & -> & DG).
    unfold shape. cbn -[N.eqb].
    assert (93 =? d = false) as -> by (apply N.eqb_neq; intros <-; discriminate). reflexivity.
  - reflexivity.
  - now destruct d.
  - now apply shape_hashed.
  - now apply shape_hashed.
  - destruct ms; [now apply shape_atom|now apply shape_hashed].
Qed.

Lemma same_shape t t2 r1 r2 : wf t = true -> wf t2 = true -> headD D r1 -> headD D r2 ->
  nm t ++ r1 = nm t2 ++ r2 -> shape_of t = shape_of t2.
Proof. intros W W2 H1 H2 E. now rewrite <- (nm_shape t r1), <- (nm_shape t2 r2), E. Qed.

Lemma builtin_eq t t2 : wf t = true -> wf t2 = true ->
  shape_of t = KAtom false -> shape_of t2 = KAtom false -> nm t = nm t2 -> identb t t2 = true.
Proof.
  intros W W2 S S2 E.
  rewrite (proj1 (nm_builtin _ W S)), (proj1 (nm_builtin _ W2 S2)) in E. apply app_inv_head in E.
  destruct (builtin_cases t W S) as [(k & al & -> & Wk)|[-> | ->]],
           (builtin_cases t2 W2 S2) as [(k2 & al2 & -> & Wk2)|[-> | ->]]; cbn [btok] in E.
  - (* basic, basic *) apply basic_name_inj in E; auto. subst. apply N.eqb_refl.
  - (* basic, error *) now apply basic_name_not in E; auto.
  - (* basic, any *) now apply basic_name_not in E; auto.
  - (* error, basic *) symmetry in E. now apply basic_name_not in E; auto.
  - (* error, error *) reflexivity.
  - (* error, any *) discriminate E.
  - (* any, basic *) symmetry in E. now apply basic_name_not in E; auto.
  - (* any, error *) discriminate E.
  - (* any, any *) reflexivity.
Qed.

Lemma named_eq t t2 : wf t = true -> wf t2 = true ->
  shape_of t = KAtom true -> shape_of t2 = KAtom true -> nm t = nm t2 -> identb t t2 = true.
Proof.
  intros W W2 S S2 E.
  destruct (nm_named _ W S) as (p & n & sc & -> & N1 & Wp & Wn & Ws).
  destruct (nm_named _ W2 S2) as (p' & n' & sc' & -> & N2 & Wp' & Wn' & Ws').
  rewrite N1, N2 in E. apply app_inv_head in E.
  apply named_tok_inj in E as (-> & -> & ->); auto. apply identb_named_refl.
Qed.

Definition Q_ty (t : ty) : Prop := forall t2 r1 r2, wf t = true -> wf t2 = true -> headD D r1 -> headD D r2 ->
  nm t ++ r1 = nm t2 ++ r2 -> identb t t2 = true /\ r1 = r2.
Definition Q_tys (ts : tys) : Prop := forall ts2 r1 r2, wf_tys ts = true -> wf_tys ts2 = true ->
  tys_len ts = tys_len ts2 -> tuple_lines true H ts ++ r1 = tuple_lines true H ts2 ++ r2 ->
  identb_tys ts ts2 = true /\ r1 = r2.
(* P, P': the packages of the two struct literals; the name records the package only when
   some field is unexported, so only then are the two known to agree *)
Definition Q_fields (fs : fields) : Prop := forall fs2 P P' r1 r2,
  wf_fields P fs = true -> wf_fields P' fs2 = true -> (any_unexp fs = true -> P = P') ->
  fields_len fs = fields_len fs2 -> field_lines true H fs ++ r1 = field_lines true H fs2 ++ r2 ->
  identb_fields fs fs2 = true /\ r1 = r2.
Definition Q_methods (ms : methods) : Prop := forall ms2 r1 r2,
  wf_methods ms = true -> wf_methods ms2 = true ->
  methods_len ms = methods_len ms2 -> method_lines true H ms ++ r1 = method_lines true H ms2 ++ r2 ->
  identb_methods ms ms2 = true /\ r1 = r2.

Lemma atom_eq t b : shape_of t = KAtom b -> Q_ty t.
Proof.
  intros S t2 r1 r2 W W2 H1 H2 E. pose proof (same_shape _ _ _ _ W W2 H1 H2 E) as S2. rewrite S in S2.
  apply (split_first D) in E as [E ->]; auto using path_freeD, (atom_path _ b).
  split; [|reflexivity]. destruct b; [now apply named_eq|now apply builtin_eq].
Qed.

Lemma hashed_eq t t2 r1 r2 : wf t = true -> wf t2 = true -> headD D r1 -> headD D r2 ->
  shape_of t = KHashed -> nm t ++ r1 = nm t2 ++ r2 ->
  hpre t = hpre t2 /\ htext t = htext t2 /\ r1 = r2.
Proof.
  intros W W2 H1 H2 S E. pose proof (same_shape _ _ _ _ W W2 H1 H2 E) as S2. rewrite S in S2. symmetry in S2.
  destruct (nm_hashed _ W S) as [N1 P1], (nm_hashed _ W2 S2) as [N2 P2]. rewrite N1, N2, <- !app_assoc in E.
  apply (split_first DD) in E as [EP E];
    [|exact (forallb_free _ _ _ path_notDD P1)|exact (forallb_free _ _ _ path_notDD P2)|exact eq_refl|exact eq_refl].
  injection E as E. apply (split_first D) in E as [E ->]; [|apply H_freeD|apply H_freeD|exact H1|exact H2].
  (* the one use of the premise that the hash is injective *)
  apply H_inj in E. auto.
Qed.

Lemma func_text_inj ps rs v ps' rs' v' :
  Q_tys ps -> Q_tys rs -> wf_tys ps = true -> wf_tys rs = true -> wf_tys ps' = true -> wf_tys rs' = true ->
  func_text ps rs v = func_text ps' rs' v' ->
  v = v' /\ identb_tys ps ps' = true /\ identb_tys rs rs' = true.
Proof.
  intros QP QR W1 W2 W3 W4 E. unfold func_text, func_hdr in E. rewrite <- !app_assoc in E.
  apply app_inv_head in E. injection E as E.
  apply dec_sep in E as [NP E]; [|reflexivity].
  apply dec_sep in E as [NR E]; [|reflexivity].
  assert (v = v') as <- by (destruct v, v'; reflexivity || discriminate E).
  apply app_inv_head in E. injection E as E.
  destruct (QP ps' _ _ W1 W3 NP E) as [A E'].
  rewrite <- (app_nil_r (tuple_lines true H rs)), <- (app_nil_r (tuple_lines true H rs')) in E'.
  destruct (QR rs' _ _ W2 W4 NR E') as [B _]. auto.
Qed.

Lemma wf_func_parts ps rs v : wf (TFunc ps rs v) = true -> wf_tys ps = true /\ wf_tys rs = true.
Proof. cbn [wf]. intros E. now apply andb_true_iff in E. Qed.

Lemma hpre_struct_pkg fs fs2 :
  hpre_struct fs = hpre_struct fs2 -> any_unexp fs = true -> struct_pkg fs = struct_pkg fs2.
Proof.
  intros E U. unfold hpre_struct in E. rewrite U in E. destruct (any_unexp fs2).
  - now apply app_inv_tail in E.
  - (* read from the right end, .struct against _struct *)
    apply (f_equal (@rev N)) in E. rewrite rev_app_distr in E. discriminate E.
Qed.

Lemma struct_text_inj fs fs2 : Q_fields fs -> wf (TStruct fs) = true -> wf (TStruct fs2) = true ->
  hpre_struct fs = hpre_struct fs2 -> struct_text fs = struct_text fs2 -> identb_fields fs fs2 = true.
Proof.
  intros Q W W2 EP E. unfold struct_text in E. apply app_inv_head in E. injection E as E.
  apply dec_sep in E as [NL E]; [|reflexivity].
  destruct (wf_struct_parts _ W) as [WF _]. destruct (wf_struct_parts _ W2) as [WF2 _].
  rewrite <- (app_nil_r (field_lines true H fs)), <- (app_nil_r (field_lines true H fs2)) in E.
  now destruct (Q fs2 _ _ _ _ WF WF2 (hpre_struct_pkg _ _ EP) NL E).
Qed.

Lemma iface_text_inj ms ms2 : Q_methods ms -> wf (TIface ms) = true -> wf (TIface ms2) = true ->
  iface_text ms = iface_text ms2 -> identb_methods ms ms2 = true.
Proof.
  intros Q W W2 E. unfold iface_text in E. apply app_inv_head in E. injection E as E.
  apply dec_sep in E as [NL E]; [|reflexivity].
  rewrite <- (app_nil_r (method_lines true H ms)), <- (app_nil_r (method_lines true H ms2)) in E.
  now destruct (Q ms2 _ _ W W2 NL E).
Qed.

Theorem inj_all : (forall t, Q_ty t) /\ (forall ts, Q_tys ts) /\ (forall fs, Q_fields fs) /\ (forall ms, Q_methods ms).
Proof.
  apply ty_mutind.
  - intros k al. now apply (atom_eq _ false).
  - intros pkg name targs _ sc. now apply (atom_eq _ (is_some pkg)).
  - intros e IH t2 r1 r2 W W2 H1 H2 E. pose proof (same_shape _ _ _ _ W W2 H1 H2 E) as S.
    destruct t2; try discriminate S; [|destruct ms; discriminate S].
    cbn [tn fst] in E. injection E as E. exact (IH t2 _ _ W W2 H1 H2 E).
  - intros e IH t2 r1 r2 W W2 H1 H2 E. pose proof (same_shape _ _ _ _ W W2 H1 H2 E) as S.
    destruct t2; try discriminate S; [|destruct ms; discriminate S].
    cbn [tn fst] in E. injection E as E. exact (IH t2 _ _ W W2 H1 H2 E).
  - intros n e IH t2 r1 r2 W W2 H1 H2 E. pose proof (same_shape _ _ _ _ W W2 H1 H2 E) as S.
    destruct t2; try discriminate S; [|destruct ms; discriminate S].
    cbn [tn fst] in E. rewrite <- !app_assoc in E. injection E as E.
    apply dec_sep in E as [-> E]; [|reflexivity].
    destruct (IH t2 _ _ W W2 H1 H2 E) as [A ->]. split; [|reflexivity]. cbn [identb]. now rewrite N.eqb_refl.
  - intros k IHk e IHe t2 r1 r2 W W2 H1 H2 E. pose proof (same_shape _ _ _ _ W W2 H1 H2 E) as S.
    destruct t2; try discriminate S; [|destruct ms; discriminate S].
    cbn [tn fst] in E. rewrite <- !app_assoc in E. apply app_inv_head in E.
    cbn [wf] in W, W2. apply andb_true_iff in W as [Wk We]. apply andb_true_iff in W2 as [Wk2 We2].
    apply IHk in E as [A E']; [|assumption|assumption|exact eq_refl|exact eq_refl]. injection E' as E'.
    destruct (IHe _ _ _ We We2 H1 H2 E') as [B ->]. split; [|reflexivity]. cbn [identb]. now rewrite A.
  - intros d e IH t2 r1 r2 W W2 H1 H2 E. pose proof (same_shape _ _ _ _ W W2 H1 H2 E) as S.
    destruct t2; try discriminate S; [|destruct ms; discriminate S]. injection S as <-.
    cbn [tn fst] in E. rewrite <- !app_assoc in E. apply app_inv_head in E. injection E as E.
    destruct (IH t2 _ _ W W2 H1 H2 E) as [A ->]. split; [|reflexivity]. cbn [identb]. now destruct d.
  - intros ps IHp rs IHr v t2 r1 r2 W W2 H1 H2 E.
    destruct (hashed_eq _ _ _ _ W W2 H1 H2 eq_refl E) as (_ & ET & ->). split; [|reflexivity].
    destruct t2; try discriminate ET. cbn [htext] in ET.
    destruct (wf_func_parts _ _ _ W) as [Wp Wr], (wf_func_parts _ _ _ W2) as [Wp2 Wr2].
    destruct (func_text_inj _ _ _ _ _ _ (IHp) (IHr) Wp Wr Wp2 Wr2 ET) as (-> & A & B).
    cbn [identb]. now rewrite A, B, Bool.eqb_reflx.
  - intros fs IH t2 r1 r2 W W2 H1 H2 E.
    destruct (hashed_eq _ _ _ _ W W2 H1 H2 eq_refl E) as (EP & ET & ->). split; [|reflexivity].
    destruct t2; try discriminate ET. now apply struct_text_inj.
  - intros ms IH. destruct ms as [|n p ps rs v ms']; [now apply (atom_eq _ false)|].
    intros t2 r1 r2 W W2 H1 H2 E.
    destruct (hashed_eq _ _ _ _ W W2 H1 H2 eq_refl E) as (_ & ET & ->). split; [|reflexivity].
    destruct t2; try discriminate ET. cbn [identb]. now apply iface_text_inj.
  - intros ts2 r1 r2 _ _ L E. destruct ts2; [cbn in E; auto|cbn [tys_len] in L; lia].
  - intros nme t IHt r IHr ts2 r1 r2 W W2 L E.
    destruct ts2 as [|nme2 t2 r']; [cbn [tys_len] in L; lia|].
    cbn [wf_tys] in W, W2. apply andb_true_iff in W as [Wt Wr]. apply andb_true_iff in W2 as [Wt2 Wr2].
    rewrite !tuple_lines_cons, !tn_true_wf, <- !app_assoc in E by auto.
    apply IHt in E as [A E']; [|assumption|assumption|exact eq_refl|exact eq_refl]. injection E' as E'.
    destruct (IHr _ _ _ Wr Wr2 (proj1 (N.add_cancel_l _ _ 1) L) E') as [B ->]. split; [|reflexivity]. cbn [identb_tys]. now rewrite A.
  - intros fs2 P P' r1 r2 _ _ _ L E. destruct fs2; [cbn in E; auto|cbn [fields_len] in L; lia].
  - intros n emb tag pkg t IHt r IHr fs2 P P' r1 r2 W W2 PP L E.
    destruct fs2 as [|n2 emb2 tag2 pkg2 t2 r']; [cbn [fields_len] in L; lia|].
    apply wf_fields_cons in W as (-> & Wt & Wn & Wr). apply wf_fields_cons in W2 as (-> & Wt2 & Wn2 & Wr2).
    rewrite !field_lines_cons in E. cbn [andb] in E. rewrite <- !app_assoc in E.
    apply (split_first D) in E as [EN E]; [|now apply (field_head_free emb)|now apply (field_head_free emb2)|exact eq_refl|exact eq_refl].
    apply field_head_inj in EN as [-> ->]; auto. injection E as E.
    apply IHt in E as [A E']; [|assumption|assumption|now destruct tag|now destruct tag2].
    apply tagpart_split in E' as [-> E'].
    assert (PP' : any_unexp r = true -> P = P').
    { intros U. apply PP. cbn [any_unexp]. rewrite U. apply orb_true_r. }
    destruct (IHr _ _ _ _ _ Wr Wr2 PP' (proj1 (N.add_cancel_l _ _ 1) L) E') as [B ->]. split; [|reflexivity].
    cbn [identb_fields]. rewrite A, B, Bool.eqb_reflx, str_eqb_refl, same_id_intro; [reflexivity|].
    intros X. rewrite PP; [reflexivity|]. cbn [any_unexp]. now rewrite X.
  - intros ms2 r1 r2 _ _ L E. destruct ms2; [cbn in E; auto|cbn [methods_len] in L; lia].
  - intros n pkg ps IHp rs IHr v r IHm ms2 r1 r2 W W2 L E.
    destruct ms2 as [|n2 pkg2 ps2 rs2 v2 r']; [cbn [methods_len] in L; lia|].
    apply wf_methods_cons in W as ((p & -> & Wp) & Wn & Wps & Wrs & Wm).
    apply wf_methods_cons in W2 as ((p2 & -> & Wp2) & Wn2 & Wps2 & Wrs2 & Wm2).
    rewrite !method_lines_cons, <- !app_assoc in E.
    apply (split_first D) in E as [EID E]; [| | |exact eq_refl|exact eq_refl];
      [|exact (path_freeD _ (method_id_path _ _ Wn Wp))|exact (path_freeD _ (method_id_path _ _ Wn2 Wp2))].
    apply method_id_inj in EID; auto. injection E as E.
    apply (split_first D) in E as [EH E]; auto using H_freeD; try exact eq_refl.
    apply H_inj in EH.
    destruct (func_text_inj _ _ _ _ _ _ IHp IHr Wps Wrs Wps2 Wrs2 EH) as (-> & A & B).
    injection E as E. destruct (IHm _ _ _ Wm Wm2 (proj1 (N.add_cancel_l _ _ 1) L) E) as [C ->]. split; [|reflexivity].
    cbn [identb_methods]. now rewrite EID, A, B, C, Bool.eqb_reflx.
Qed.

End Inj.
