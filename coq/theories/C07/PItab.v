(* C07 - the method table search.  The byte order of names (str_ltb) is a strict order; on a table
   sorted by it findMethod succeeds exactly when some method matches (find_method_has).  NewItab
   (itab_slots, new_itab) and both versions of Implements (all_found, impl_scan) are read through
   that fact.  The file ends with the two concrete tables behind the refutations in C07/Props.v. *)
From LLGoV Require Import C07.Model.
From Coq Require Import Sorted.
Local Open Scope N_scope.

Lemma str_ltb_irrefl a : str_ltb a a = false.
Proof. induction a as [|x a IH]; cbn; [reflexivity|]. now rewrite N.ltb_irrefl. Qed.

Lemma str_ltb_trans a : forall b c, str_ltb a b = true -> str_ltb b c = true -> str_ltb a c = true.
Proof.
  induction a as [|x a IH]; intros [|y b] [|z c]; cbn; try discriminate; auto.
  destruct (x <? y) eqn:Exy.
  - intros _. destruct (y <? z) eqn:Eyz.
    + intros _. apply N.ltb_lt in Exy, Eyz. assert (Lxz : x < z) by lia. apply N.ltb_lt in Lxz. now rewrite Lxz.
    + destruct (z <? y) eqn:Ezy; [discriminate|]. intros _.
      apply N.ltb_lt in Exy. apply N.ltb_ge in Eyz, Ezy. assert (Lxz : x < z) by lia. apply N.ltb_lt in Lxz. now rewrite Lxz.
  - destruct (y <? x) eqn:Eyx; [discriminate|]. intros Hab.
    apply N.ltb_ge in Exy, Eyx. assert (x = y) by lia. subst y.
    destruct (x <? z); [reflexivity|]. destruct (z <? x); [discriminate|]. now apply IH.
Qed.

Lemma str_ltb_total a : forall b, str_ltb a b = false -> str_ltb b a = false -> a = b.
Proof.
  induction a as [|x a IH]; intros [|y b]; cbn; try discriminate; auto.
  destruct (x <? y) eqn:Exy; [discriminate|]. destruct (y <? x) eqn:Eyx; [discriminate|].
  intros A B. apply N.ltb_ge in Exy, Eyx. assert (x = y) by lia. subst. f_equal. now apply IH.
Qed.

Lemma str_ltb_asym a b : str_ltb a b = true -> str_ltb b a = false.
Proof.
  intros A. destruct (str_ltb b a) eqn:B; [|reflexivity].
  pose proof (str_ltb_trans _ _ _ A B) as C. now rewrite str_ltb_irrefl in C.
Qed.

Definition mlt (a b : meth) : Prop := str_ltb (m_name a) (m_name b) = true.
Definition imlt (a b : imeth) : Prop := str_ltb (im_name a) (im_name b) = true.
Definition matches (im : imeth) (m : meth) : Prop := m_name m = im_name im /\ m_typ m = im_typ im.
Definition has (mt : list meth) (im : imeth) : Prop := exists m, In m mt /\ matches im m.

Lemma match_dec im m :
  (str_eqb (m_name m) (im_name im) && (m_typ m =? im_typ im)) = true <-> matches im m.
Proof.
  unfold matches. rewrite andb_true_iff, str_eqb_iff, N.eqb_eq. tauto.
Qed.

Lemma sorted_unique mt : StronglySorted mlt mt ->
  forall m1 m2, In m1 mt -> In m2 mt -> m_name m1 = m_name m2 -> m1 = m2.
Proof.
  induction 1 as [|m mt S IH F]; intros m1 m2 I1 I2 E; [destruct I1|].
  rewrite Forall_forall in F.
  destruct I1 as [<-|I1], I2 as [<-|I2]; auto.
  - specialize (F _ I2). unfold mlt in F. rewrite E, str_ltb_irrefl in F. discriminate.
  - specialize (F _ I1). unfold mlt in F. rewrite <- E, str_ltb_irrefl in F. discriminate.
Qed.

Lemma find_method_sound mt im fn :
  find_method mt im = Some fn -> exists m, In m mt /\ matches im m /\ m_ifn m = fn.
Proof.
  induction mt as [|m mt IH]; cbn; [discriminate|].
  destruct (str_geb (m_name m) (im_name im)).
  - destruct (str_eqb (m_name m) (im_name im) && (m_typ m =? im_typ im)) eqn:E; [|discriminate].
    intros [= <-]. exists m. apply match_dec in E. auto.
  - intros F. destruct (IH F) as (m' & I & M & E). exists m'. auto.
Qed.

Lemma find_method_complete mt : StronglySorted mlt mt ->
  forall im m, In m mt -> matches im m -> find_method mt im = Some (m_ifn m).
Proof.
  induction 1 as [|m0 mt S IH F]; intros im m I M; [destruct I|].
  cbn. rewrite Forall_forall in F. destruct I as [<-|I].
  - destruct M as [Mn Mt]. unfold str_geb. rewrite Mn, str_ltb_irrefl. cbn.
    now rewrite str_eqb_refl, Mt, N.eqb_refl.
  - specialize (F _ I). unfold mlt in F. destruct M as [Mn Mt].
    unfold str_geb. rewrite <- Mn. rewrite F. cbn. apply IH; auto. split; auto.
Qed.

Lemma find_method_has mt im : StronglySorted mlt mt ->
  (is_some (find_method mt im) = true <-> has mt im).
Proof.
  intros S. split.
  - destruct (find_method mt im) as [fn|] eqn:F; [|discriminate]. intros _.
    destruct (find_method_sound _ _ _ F) as (m & I & M & _). exists m; auto.
  - intros (m & I & M). now rewrite (find_method_complete mt S im m I M).
Qed.

Definition all_found (inter : list imeth) (mt : list meth) : bool :=
  forallb (fun im => is_some (find_method mt im)) inter.

Lemma all_found_iff inter mt : StronglySorted mlt mt ->
  (all_found inter mt = true <-> Forall (has mt) inter).
Proof.
  intros S. unfold all_found. rewrite forallb_forall, Forall_forall.
  split; intros A im I; apply (find_method_has mt im S), A, I.
Qed.

Lemma Forall2_imp {A B} (P Q : A -> B -> Prop) l1 l2 :
  (forall a b, P a b -> Q a b) -> Forall2 P l1 l2 -> Forall2 Q l1 l2.
Proof. intros I F. induction F; constructor; auto. Qed.

Lemma itab_slots_sound inter : forall mt slots,
  itab_slots inter mt = Some slots ->
  Forall2 (fun im fn => exists m, In m mt /\ matches im m /\ m_ifn m = fn) inter slots.
Proof.
  induction inter as [|im inter IH]; cbn; intros mt slots.
  - intros [= <-]. constructor.
  - destruct (find_method mt im) as [fn|] eqn:F; [|discriminate].
    destruct (itab_slots inter mt) as [s|] eqn:R; [|discriminate].
    intros [= <-]. constructor; auto. now apply find_method_sound.
Qed.

Lemma itab_slots_found inter mt : itab_slots inter mt <> None <-> all_found inter mt = true.
Proof.
  induction inter as [|im inter IH]; cbn; [split; [reflexivity|discriminate]|].
  destruct (find_method mt im); cbn; [|split; [congruence|discriminate]].
  rewrite <- IH. destruct (itab_slots inter mt); split; congruence.
Qed.

Lemma new_itab_iff inter mt :
  StronglySorted mlt mt -> Forall (fun m => m_ifn m <> 0) mt -> inter <> [] ->
  (new_itab inter (Some mt) <> None <-> Forall (has mt) inter).
Proof.
  intros S NZ NE. rewrite <- (all_found_iff inter mt S), <- itab_slots_found. unfold new_itab.
  destruct (itab_slots inter mt) as [slots|] eqn:E; [|tauto].
  pose proof (itab_slots_sound _ _ _ E) as F2.
  destruct slots as [|f0 s].
  - inversion F2; subst. congruence.
  - inversion F2 as [|im fn inter' s' (m & I & M & Efn) F2']; subst.
    rewrite Forall_forall in NZ. specialize (NZ _ I).
    destruct (m_ifn m =? 0) eqn:Z; [apply N.eqb_eq in Z; congruence|].
    split; intros _; discriminate.
Qed.

Lemma new_itab_slots inter mt slots :
  StronglySorted mlt mt -> new_itab inter (Some mt) = Some slots ->
  Forall2 (fun im fn => exists m, In m mt /\ matches im m /\ m_ifn m = fn
                                  /\ forall m', In m' mt -> m_name m' = im_name im -> m' = m) inter slots.
Proof.
  intros S. unfold new_itab.
  destruct (itab_slots inter mt) as [sl|] eqn:E; [|discriminate].
  destruct sl as [|f0 s]; [discriminate|].
  destruct (f0 =? 0); [discriminate|]. intros [= <-].
  pose proof (itab_slots_sound _ _ _ E) as F2.
  eapply Forall2_imp; [|exact F2]. cbn. intros im fn (m & I & M & Efn).
  exists m. repeat split; try apply M; auto.
  intros m' I' En. eapply sorted_unique; eauto. destruct M as [Mn _]. congruence.
Qed.

Lemma impl_scan_cons tm t vm v :
  impl_scan (tm :: t) (vm :: v) =
  if str_eqb (m_name vm) (im_name tm) && (m_typ vm =? im_typ tm) then impl_scan t v
  else impl_scan (tm :: t) v.
Proof. reflexivity. Qed.

Lemma impl_scan_nil_r tm t : impl_scan (tm :: t) [] = false.
Proof. reflexivity. Qed.

Lemma has_cons vm v im : has v im -> has (vm :: v) im.
Proof. intros (m & I & M). exists m. split; [now right|exact M]. Qed.

Lemma impl_scan_sound t : forall v, impl_scan t v = true -> Forall (has v) t.
Proof.
  induction t as [|tm t IH]; intros v; [constructor|].
  induction v as [|vm v IHv]; [discriminate|].
  rewrite impl_scan_cons.
  destruct (str_eqb (m_name vm) (im_name tm) && (m_typ vm =? im_typ tm)) eqn:E.
  - intros A. apply IH in A. constructor.
    + exists vm. split; [now left|now apply match_dec].
    + exact (Forall_impl _ (has_cons vm v) A).
  - intros A. apply IHv in A. exact (Forall_impl _ (has_cons vm v) A).
Qed.

Lemma impl_scan_complete v : StronglySorted mlt v ->
  forall t, StronglySorted imlt t -> Forall (has v) t -> impl_scan t v = true.
Proof.
  induction 1 as [|vm v Sv IH Fv]; intros t St A; (destruct t as [|tm t]; [reflexivity|]).
  - inversion A as [|? ? (m & [] & _)].
  - rewrite impl_scan_cons. rewrite Forall_forall in Fv.
    inversion St as [|? ? St' Ft]; subst. rewrite Forall_forall in Ft.
    inversion A as [|? ? (m & I & M) A']; subst.
    (* the later interface methods have larger names than vm, so they are found in v *)
    assert (T : Forall (has v) t).
    { rewrite Forall_forall in *. intros im Iim.
      destruct (A' _ Iim) as (m' & [<-|I'] & M'); [exfalso|exists m'; auto].
      specialize (Ft _ Iim). unfold imlt in Ft. rewrite <- (proj1 M), <- (proj1 M') in Ft.
      destruct I as [<-|I]; [now rewrite str_ltb_irrefl in Ft|].
      pose proof (str_ltb_trans _ _ _ (Fv _ I) Ft) as C. now rewrite str_ltb_irrefl in C. }
    destruct (str_eqb (m_name vm) (im_name tm) && (m_typ vm =? im_typ tm)) eqn:E; [now apply IH|].
    apply IH; auto. constructor; [|exact T]. exists m. split; [|exact M].
    destruct I as [<-|I]; auto. apply match_dec in M. congruence.
Qed.

(* the interface order of go/types (exported names first) is not the byte order of the
   type's table: A0/p.bar sorts before Foo there *)
Definition w_inter : list imeth :=
  [IMeth [70;111;111] 1; IMeth [65;48;47;112;46;98;97;114] 1].
Definition w_table : list meth :=
  [Meth [65;48;47;112;46;98;97;114] 1 7; Meth [70;111;111] 1 8].

Lemma implements_order_witness :
  StronglySorted mlt w_table /\ Forall (has w_table) w_inter /\
  implements false w_inter (Some w_table) = false /\ new_itab w_inter (Some w_table) = Some [8; 7]
  /\ implements true w_inter (Some w_table) = true.
Proof.
  split; [|split; [|repeat split; reflexivity]].
  - repeat constructor.
  - constructor; [|constructor; [|constructor]].
    + exists (Meth [70;111;111] 1 8). split; [right; left; reflexivity|split; reflexivity].
    + exists (Meth [65;48;47;112;46;98;97;114] 1 7). split; [left; reflexivity|split; reflexivity].
Qed.

(* a matched method whose function pointer is nil in slot 0 makes the itab read as failed *)
Lemma itab_nil_slot0_witness :
  let mt := [Meth [70] 1 0] in let inter := [IMeth [70] 1] in
  StronglySorted mlt mt /\ Forall (has mt) inter /\ new_itab inter (Some mt) = None.
Proof.
  cbn. split; [repeat constructor|split; [|reflexivity]].
  constructor; [|constructor]. exists (Meth [70] 1 0). split; [left; reflexivity|split; reflexivity].
Qed.
