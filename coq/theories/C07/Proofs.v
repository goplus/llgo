(* C07 - lemma index: the proofs live in PItab.v (method tables), PStr.v (strings),
   PName.v (identical types share a name; witnesses), PInj.v (equal names imply
   identical types).  This file adds the alphabet fact about the concrete hash. *)
From LLGoV Require Export C07.Model C07.PItab C07.PStr C07.PName C07.PInj.
From LLGoV Require Import C07.Sha256.
Local Open Scope N_scope.

Lemma b64c_alpha i : b64char (b64c i) = true.
Proof.
  assert (R : forall a b c, a <= c <= b -> (a <=? c) && (c <=? b) = true).
  { intros a b c [A B]. apply N.leb_le in A, B. now rewrite A, B. }
  unfold b64c, b64char, ident_char, is_upper, is_digit.
  destruct (N.ltb_spec i 26); [now rewrite (R 65 90) by lia|].
  destruct (N.ltb_spec i 52); [rewrite (R 97 122) by lia; now rewrite orb_true_r|].
  destruct (N.ltb_spec i 62); [rewrite (R 48 57) by lia; now rewrite orb_true_r|].
  destruct (i =? 62); reflexivity.
Qed.

Lemma b64url_alpha bs : forallb b64char (b64url bs) = true.
Proof.
  (* b64url consumes three bytes at a time: induction on a bound of the length *)
  assert (A : forall n bs, (length bs <= n)%nat -> forallb b64char (b64url bs) = true);
    [|exact (A _ bs (le_n _))].
  clear bs. induction n as [|n IH]; intros bs L.
  - destruct bs; [reflexivity|cbn in L; lia].
  - destruct bs as [|a [|b [|c r]]]; try reflexivity.
    + cbn [b64url forallb]. now rewrite !b64c_alpha.
    + cbn [b64url forallb]. now rewrite !b64c_alpha.
    + cbn [b64url forallb]. rewrite !b64c_alpha. cbn [andb]. apply IH. cbn in L. lia.
Qed.
