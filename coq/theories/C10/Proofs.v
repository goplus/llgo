(* C10 - proofs about the model of z_chan.go (C10/Model.v): ring buffer arithmetic, refinement of
   Go's channel semantics by the buffered channel (invariant over all schedules), no lost wake-up,
   non-blocking operations, results vs. event log, and the witnesses of the recorded defects. *)
From LLGoV Require Import Lib.Common C10.Model.

Lemma upd_length {A} (l : list A) i x : length (upd l i x) = length l.
Proof. revert i; induction l; destruct i; cbn; auto. Qed.

Lemma nth_upd_same {A} (l : list A) i x d : i < length l -> nth i (upd l i x) d = x.
Proof. revert i; induction l; destruct i; cbn; intros; try lia; auto. apply IHl. lia. Qed.

Lemma nth_upd_other {A} (l : list A) i j x d : i <> j -> nth j (upd l i x) d = nth j l d.
Proof. revert i j; induction l; destruct i, j; cbn; intros; try congruence; auto. Qed.

Lemma nth_error_upd_same {A} (l : list A) i x : i < length l -> nth_error (upd l i x) i = Some x.
Proof. revert i; induction l; destruct i; cbn; intros; try lia; auto. apply IHl. lia. Qed.

Lemma nth_error_upd_other {A} (l : list A) i j x : i <> j -> nth_error (upd l i x) j = nth_error l j.
Proof. revert i j; induction l; destruct i, j; cbn; intros; try congruence; auto. Qed.

Lemma nth_error_lt {A} (l : list A) i x : nth_error l i = Some x -> i < length l.
Proof. intros H. apply nth_error_Some. congruence. Qed.

(* split on the condition of every [if] in the goal: for facts that hold in each branch of a critical section *)
Ltac case_ifs := repeat match goal with |- context [if ?b then _ else _] => destruct b end.

Lemma mod_lt2 a c : 0 < c -> a < 2 * c -> a mod c = if a <? c then a else a - c.
Proof.
  intros Hc Ha. destruct (Nat.ltb_spec a c).
  - now apply Nat.mod_small.
  - symmetry. apply Nat.mod_unique with (q := 1); lia.
Qed.

Definition wf (c : chan) : Prop :=
  0 < cap c /\ length (buf c) = cap c /\ getp c < cap c /\ len c <= cap c.

Lemma contents_length c : length (contents c) = len c.
Proof. unfold contents. now rewrite map_length, seq_length. Qed.

Lemma contents_put c v : wf c -> len c < cap c -> contents (put c v) = contents c ++ [v].
Proof.
  intros (Hc & Hl & Hg & Hn) Hlt. unfold contents, put; cbn [getp len cap buf].
  rewrite seq_S, map_app. cbn [map]. f_equal.
  - apply map_ext_in. intros i Hi. apply in_seq in Hi.
    apply nth_upd_other.
    rewrite !mod_lt2 by lia.
    destruct (Nat.ltb_spec (getp c + len c) (cap c)), (Nat.ltb_spec (getp c + i) (cap c)). all: lia.
  - f_equal. cbn. apply nth_upd_same. rewrite Hl. apply Nat.mod_upper_bound. lia.
Qed.

Lemma contents_take c : wf c -> 0 < len c -> contents c = front c :: contents (take c).
Proof.
  intros (Hc & Hl & Hg & Hn) Hlt. unfold contents, take, front; cbn [getp len cap buf].
  destruct (len c) as [|k] eqn:E; [lia|]. cbn [pred].
  rewrite <- cons_seq. cbn [map]. f_equal.
  - f_equal. rewrite Nat.add_0_r. now apply Nat.mod_small.
  - rewrite <- seq_shift, map_map. apply map_ext. intros i.
    f_equal. rewrite Nat.add_mod_idemp_l by lia. f_equal. lia.
Qed.

Lemma wf_put c v : wf c -> len c < cap c -> wf (put c v).
Proof. intros (Hc & Hl & Hg & Hn) H. unfold wf, put; cbn. rewrite upd_length. lia. Qed.

Lemma wf_take c : wf c -> 0 < len c -> wf (take c).
Proof.
  intros (Hc & Hl & Hg & Hn) H. unfold wf, take; cbn. repeat split; try lia.
  apply Nat.mod_upper_bound. lia.
Qed.

Definition absc (c : chan) : spec := mkSpec (contents c) (closed c).

(* false of the program counters that a buffered channel never reaches *)
Definition pc_buf (p : pc) : Prop :=
  match p with PRecv2 | PRecv2W | PBcast None => False | _ => True end.

Lemma contents_nil c : len c = 0 -> contents c = [].
Proof. intros H. unfold contents. now rewrite H. Qed.

Lemma cap_nz c : wf c -> (cap c =? 0) = false.
Proof. intros (H & _). apply Nat.eqb_neq. lia. Qed.

Lemma spec_send_ok c v :
  wf c -> len c < cap c -> closed c = false ->
  spec_step (cap c) (absc c) (ESend v) = Some (absc (put c v)).
Proof.
  intros W H Ec. unfold spec_step, absc. cbn [sq sclosed]. rewrite Ec, contents_length.
  assert (len c <? cap c = true) as -> by (apply Nat.ltb_lt; lia). cbn [negb andb].
  rewrite contents_put by auto. unfold put; cbn [closed]. now rewrite Ec.
Qed.

Lemma spec_recv_ok c :
  wf c -> 0 < len c ->
  spec_step (cap c) (absc c) (ERecv (front c)) = Some (absc (take c)).
Proof.
  intros W H. unfold spec_step, absc. cbn [sq sclosed].
  rewrite (contents_take c) by auto. now rewrite N.eqb_refl.
Qed.

(* The critical sections of a buffered channel, case by case.  All but the Broadcast step deliver
   nothing and wake nobody: [quiet c th rest c' th' ev] gives their new channel, new thread and event.
   QFin: the call returns at once (panic, closed and drained, non-blocking failure). *)
Inductive quiet (c : chan) (th : thread) (rest : list op) : chan -> thread -> option event -> Prop :=
| QParkSend : len c = cap c -> closed c = false -> quiet c th rest c (park th PSendW) None
| QParkRecv : len c = 0 -> closed c = false -> quiet c th rest c (park th PRecvW) None
| QPut v r : len c < cap c -> closed c = false ->
    quiet c th rest (put c v) (goto th (PBcast (Some r))) (Some (ESend v))
| QTake r : 0 < len c ->
    quiet c th rest (take c) (goto (set_slot th (front c)) (PBcast (Some r))) (Some (ERecv (front c)))
| QClose : closed c = false ->
    quiet c th rest (set_closed c) (goto th (PBcast (Some RClose))) (Some EClose)
| QFin r ev : spec_step (cap c) (absc c) ev = Some (absc c) -> quiet c th rest c (fin th rest r) (Some ev)
| QNoop : quiet c th rest c th None.

Inductive bsec (c : chan) (th : thread) (rest : list op) : eff -> Prop :=
| BBcast r : tpc th = PBcast (Some r) -> bsec c th rest (mkEff c (fin th rest r) None true None)
| BQuiet c' th' ev : (forall r, tpc th <> PBcast r) -> quiet c th rest c' th' ev ->
    bsec c th rest (mkEff c' th' None false ev).

Section Sections.
Variables (c : chan) (th : thread) (rest : list op).
Hypothesis W : wf c.
Hypothesis NB : forall r, tpc th <> PBcast r.

Lemma send_sec_bsec v : bsec c th rest (send_sec c th rest v).
Proof.
  pose proof W as (_ & _ & _ & Hn). unfold send_sec. rewrite (cap_nz c W).
  destruct (closed c) eqn:Ec.
  - rewrite andb_false_r. apply BQuiet, QFin; auto. cbn. now rewrite Ec.
  - rewrite andb_true_r.
    destruct (Nat.eqb_spec (len c) (cap c)); apply BQuiet; auto; constructor; auto; lia.
Qed.

Lemma recv_sec_bsec t : bsec c th rest (recv_sec c th rest t).
Proof.
  unfold recv_sec. rewrite (cap_nz c W).
  destruct (Nat.eqb_spec (len c) 0) as [E|E].
  - destruct (closed c) eqn:Ec; apply BQuiet; auto; constructor; auto.
    cbn. rewrite contents_nil by auto. now rewrite Ec.
  - apply BQuiet, QTake; auto; lia.
Qed.

Lemma trysend_sec_bsec v : bsec c th rest (trysend_sec c th rest v).
Proof.
  pose proof W as (_ & _ & _ & Hn). unfold trysend_sec.
  destruct (closed c) eqn:Ec.
  - apply BQuiet, QFin; auto. cbn. now rewrite Ec.
  - rewrite (cap_nz c W).
    destruct (Nat.eqb_spec (len c) (cap c)) as [E|E]; apply BQuiet; auto; constructor; auto; try lia.
    cbn. now rewrite Ec, contents_length, E, Nat.eqb_refl.
Qed.

Lemma tryrecv_sec_bsec t : bsec c th rest (tryrecv_sec c th rest t).
Proof.
  unfold tryrecv_sec. rewrite (cap_nz c W).
  destruct (Nat.eqb_spec (len c) 0) as [E|E].
  - destruct (closed c) eqn:Ec; apply BQuiet, QFin; auto; unfold spec_step, absc; cbn [sq sclosed];
      now rewrite contents_nil, Ec.
  - apply BQuiet, QTake; auto; lia.
Qed.
End Sections.

Lemma section_bsec c th t o rest :
  wf c -> pc_buf (tpc th) -> bsec c th rest (section c th t o rest).
Proof.
  intros W P. unfold section.
  destruct (tpc th) as [| | |[r|]| |] eqn:Epc; try contradiction; [| | |now apply BBcast].
  all: assert (NB : forall r, tpc th <> PBcast r) by (intros r; rewrite Epc; discriminate).
  all: destruct o as [v| |v| |]; try (apply BQuiet, QNoop; exact NB).
  - now apply send_sec_bsec.
  - now apply recv_sec_bsec.
  - now apply trysend_sec_bsec.
  - now apply tryrecv_sec_bsec.
  - destruct (closed c) eqn:Ec; apply BQuiet; auto; constructor; auto. cbn. now rewrite Ec.
  - rewrite (cap_nz c W). now apply send_sec_bsec.
  - now apply recv_sec_bsec.
Qed.

Lemma abs_absc s : abs s = absc (ch s).
Proof. reflexivity. Qed.

Definition sec_ok (c : chan) (e : eff) : Prop :=
  wf (e_ch e) /\ cap (e_ch e) = cap c /\ pc_buf (tpc (e_th e)) /\ e_deliver e = None /\
  match e_ev e with
  | Some ev => spec_step (cap c) (absc c) ev = Some (absc (e_ch e))
  | None => absc (e_ch e) = absc c
  end.

Lemma bsec_ok c th rest e : wf c -> pc_buf (tpc th) -> bsec c th rest e -> sec_ok c e.
Proof.
  (* in each case: the new channel is well formed, same capacity, buffered pc, no delivery, the event *)
  intros W P [r Hr|c' th' ev _ Q].
  - (* Broadcast *) exact (conj W (conj eq_refl (conj I (conj eq_refl eq_refl)))).
  - destruct Q as [Hl Ec|Hl Ec|v r Hl Ec|r Hl|Ec|r x Hx|].
    + (* park at send *) exact (conj W (conj eq_refl (conj I (conj eq_refl eq_refl)))).
    + (* park at receive *) exact (conj W (conj eq_refl (conj I (conj eq_refl eq_refl)))).
    + (* put *)
      exact (conj (wf_put c v W Hl) (conj eq_refl (conj I (conj eq_refl (spec_send_ok c v W Hl Ec))))).
    + (* take *)
      exact (conj (wf_take c W Hl) (conj eq_refl (conj I (conj eq_refl (spec_recv_ok c W Hl))))).
    + (* close *)
      refine (conj W (conj eq_refl (conj I (conj eq_refl _)))). cbn. now rewrite Ec.
    + (* the call returns at once *) exact (conj W (conj eq_refl (conj I (conj eq_refl Hx)))).
    + (* no-op *) exact (conj W (conj eq_refl (conj P (conj eq_refl eq_refl)))).
Qed.

Lemma Forall_upd {A} (P : A -> Prop) l i x : Forall P l -> P x -> Forall P (upd l i x).
Proof.
  intros H Hx. revert i. induction H; destruct i; cbn; auto.
Qed.

Lemma spec_run_app n l1 l2 : forall a,
  spec_run n a (l1 ++ l2) = match spec_run n a l1 with Some a1 => spec_run n a1 l2 | None => None end.
Proof.
  induction l1 as [|e l1 IH]; intros a; cbn; auto.
  destruct (spec_step n a e); auto.
Qed.

Lemma step_inv s t s' :
  step s t = Some s' ->
  exists th o rest, nth_error (ths s) t = Some th /\ prog th = o :: rest /\
    ((parked th = true /\ s' = mkSt (ch s) (upd (ths s) t (unpark th)) (log s)) \/
     (parked th = false /\ s' = apply_eff s t (section (ch s) th t o rest))).
Proof.
  unfold step. destruct (nth_error (ths s) t) as [th|] eqn:E; [|discriminate].
  destruct (prog th) as [|o rest] eqn:Ep; [discriminate|].
  destruct (parked th) eqn:Epk; intros [= <-]; exists th, o, rest; auto.
Qed.

Lemma run_inv (P : state -> Prop) :
  (forall s t s', P s -> step s t = Some s' -> P s') -> forall sc s, P s -> P (run sc s).
Proof. intros HP. now apply (run_invariant step run). Qed.

Lemma Forall_init (P : thread -> Prop) n progs :
  (forall p, P (init_thread p)) -> Forall P (ths (init n progs)).
Proof.
  intros H. apply Forall_forall. intros th Hin. apply in_map_iff in Hin as (p & <- & _). apply H.
Qed.

Definition inv (n : nat) (s : state) : Prop :=
  wf (ch s) /\ cap (ch s) = n /\ Forall (fun th => pc_buf (tpc th)) (ths s) /\
  spec_run n (mkSpec [] false) (events s) = Some (abs s).

Lemma inv_step n s t s' : inv n s -> step s t = Some s' -> inv n s'.
Proof.
  intros (W & Hc & HF & HS) H.
  apply step_inv in H as (th & o & rest & Et & Ep & [[Epk ->]|[Epk ->]]).
  - unfold inv; cbn [ch ths log]. refine (conj W (conj Hc (conj _ HS))).
    apply Forall_upd; auto. exact (Forall_nth_error _ _ _ _ HF Et).
  - pose proof (Forall_nth_error _ _ _ _ HF Et) as Hpc. cbn beta in Hpc.
    pose proof (bsec_ok _ _ _ _ W Hpc (section_bsec (ch s) th t o rest W Hpc)) as (W' & Hc' & Hpc' & Hd & Hev).
    set (e := section (ch s) th t o rest) in *.
    unfold inv, apply_eff. cbn [ch ths log]. refine (conj W' (conj _ (conj _ _))); try congruence.
    + rewrite Hd. cbn [deliver].
      assert (Forall (fun th0 => pc_buf (tpc th0)) (upd (ths s) t (e_th e))) as HF'
        by (apply Forall_upd; auto).
      destruct (e_bcast e); auto.
      rewrite Forall_map. revert HF'. apply Forall_impl. intros a. now destruct a.
    + rewrite abs_absc in *. unfold events in *. cbn [log ch].
      destruct (e_ev e) as [ev|].
      * rewrite map_app, spec_run_app, HS. cbn [map snd spec_run]. rewrite <- Hc. now rewrite Hev.
      * rewrite HS. f_equal. symmetry. exact Hev.
Qed.

Lemma inv_init n progs : 0 < n -> inv n (init n progs).
Proof.
  intros H. unfold inv, init, wf, init_chan, events, abs; cbn.
  rewrite repeat_length. repeat split; auto; try lia.
  apply (Forall_init _ n). intros p. exact I.
Qed.

Lemma inv_run n progs sc : 0 < n -> inv n (run sc (init n progs)).
Proof. intros H. apply (run_inv (inv n) (inv_step n)), inv_init, H. Qed.

Lemma spec_step_inv n a e a' : spec_step n a e = Some a' ->
  match e with
  | ESend v => a' = mkSpec (sq a ++ [v]) false /\ sclosed a = false /\ length (sq a) < n
  | ERecv v => sq a = v :: sq a' /\ sclosed a' = sclosed a
  | ERecvClosed => a' = a /\ sq a = [] /\ sclosed a = true
  | EClose => a' = mkSpec (sq a) true /\ sclosed a = false
  | ECloseClosed | ESendClosed => a' = a /\ sclosed a = true
  | ETrySendFail => a' = a /\ sclosed a = false /\ length (sq a) = n
  | ETryRecvEmpty => a' = a /\ sq a = [] /\ sclosed a = false
  end.
Proof.
  unfold spec_step. destruct e.
  - destruct (sclosed a); [discriminate|]. destruct (Nat.ltb_spec (length (sq a)) n); [|discriminate].
    intros [= <-]. auto.
  - destruct (sq a) as [|x q]; [discriminate|]. destruct (N.eqb_spec x v) as [->|]; [|discriminate].
    intros [= <-]. auto.
  - destruct (sq a); [|discriminate]. destruct (sclosed a); [|discriminate]. intros [= <-]. auto.
  - destruct (sclosed a); [discriminate|]. intros [= <-]. auto.
  - destruct (sclosed a); [|discriminate]. intros [= <-]. auto.
  - destruct (sclosed a); [|discriminate]. intros [= <-]. auto.
  - destruct (sclosed a); [discriminate|]. destruct (Nat.eqb_spec (length (sq a)) n); [|discriminate].
    intros [= <-]. auto.
  - destruct (sq a); [|discriminate]. destruct (sclosed a); [discriminate|]. intros [= <-]. auto.
Qed.

Lemma spec_fifo n l : forall a a', spec_run n a l = Some a' ->
  sq a ++ sent_of l = rcvd_of l ++ sq a'.
Proof.
  induction l as [|e l IH]; intros a a' H; cbn in H.
  - injection H as <-. cbn. now rewrite app_nil_r.
  - destruct (spec_step n a e) as [a1|] eqn:E; [|discriminate].
    specialize (IH _ _ H). apply spec_step_inv in E.
    destruct e; destruct E as (-> & E); cbn [sent_of rcvd_of flat_map app]; try exact IH.
    + cbn in IH. now rewrite <- app_assoc in IH.
    + cbn. f_equal. exact IH.
Qed.

Lemma spec_len n l : forall a a', length (sq a) <= n -> spec_run n a l = Some a' -> length (sq a') <= n.
Proof.
  induction l as [|e l IH]; intros a a' Hl H; cbn in H.
  - now injection H as <-.
  - destruct (spec_step n a e) as [a1|] eqn:E; [|discriminate].
    apply (IH a1); auto. apply spec_step_inv in E.
    destruct e; destruct E as (E1 & E); try (rewrite E1; exact Hl).
    + rewrite E1. cbn. rewrite app_length. cbn. lia.
    + rewrite E1 in Hl. cbn in Hl. lia.
Qed.

Lemma spec_closed_stays n l : forall a a', sclosed a = true -> spec_run n a l = Some a' ->
  sclosed a' = true /\ sent_of l = [].
Proof.
  induction l as [|e l IH]; intros a a' Hc H; cbn in H.
  - injection H as <-. auto.
  - destruct (spec_step n a e) as [a1|] eqn:E; [|discriminate].
    apply spec_step_inv in E.
    (* an event that needs an open channel cannot be e; the others send nothing and leave the channel closed *)
    destruct e; destruct E as (E1 & E).
    + (* ESend *) destruct E as (E & _). congruence.
    + (* ERecv *) apply (IH a1 a'); [congruence|exact H].
    + (* ERecvClosed *) apply (IH a1 a'); [congruence|exact H].
    + (* EClose *) congruence.
    + (* ESendClosed *) apply (IH a1 a'); [congruence|exact H].
    + (* ECloseClosed *) apply (IH a1 a'); [congruence|exact H].
    + (* ETrySendFail *) destruct E as (E & _). congruence.
    + (* ETryRecvEmpty *) destruct E as (_ & E). congruence.
Qed.

Lemma spec_closed_needs_close n l : forall a a',
  spec_run n a l = Some a' -> sclosed a = false -> sclosed a' = true -> In EClose l.
Proof.
  induction l as [|e l IH]; intros a a' H Ha Ha'; cbn in H.
  - injection H as <-. congruence.
  - destruct (spec_step n a e) as [a1|] eqn:E; [|discriminate].
    apply spec_step_inv in E.
    (* EClose is the event looked for; an event that needs a closed channel cannot be e; after any
       other the channel is still open *)
    destruct e; destruct E as (E1 & E).
    + (* ESend *) right. apply (IH a1 a'); auto. now rewrite E1.
    + (* ERecv *) right. apply (IH a1 a'); auto. congruence.
    + (* ERecvClosed *) destruct E as (_ & E). congruence.
    + (* EClose *) left. reflexivity.
    + (* ESendClosed *) congruence.
    + (* ECloseClosed *) congruence.
    + (* ETrySendFail *) right. apply (IH a1 a'); auto. congruence.
    + (* ETryRecvEmpty *) right. apply (IH a1 a'); auto. congruence.
Qed.

Definition mu (b : bool) (th : thread) : thread := if b then unpark th else th.

Lemma ths_apply_eff s t e :
  ths (apply_eff s t e) = map (mu (e_bcast e)) (upd (deliver (ths s) (e_deliver e)) t (e_th e)).
Proof.
  unfold apply_eff; cbn [ths]. destruct (e_bcast e); cbn [mu]; auto.
  symmetry. erewrite map_ext; [apply map_id|]. auto.
Qed.

(* what a step may do to a thread other than the stepping one: wake it, deliver into its slot *)
Definition same_ctl (a b : thread) : Prop :=
  prog b = prog a /\ tpc b = tpc a /\ out b = out a /\ (parked b = true -> parked a = true).

Lemma same_ctl_refl a : same_ctl a a.
Proof. repeat split; auto. Qed.

Lemma deliver_length l d : length (deliver l d) = length l.
Proof.
  destruct d as [[t v]|]; cbn; auto. destruct (nth_error l t); auto. apply upd_length.
Qed.

(* writing g th over the thread at i0, if there is one, takes every thread to an R-related one *)
Lemma nth_error_upd_rel {A} (R : A -> A -> Prop) (g : A -> A) l i0 :
  (forall a, R a a) -> (forall a, R a (g a)) ->
  forall i b, nth_error (match nth_error l i0 with Some th => upd l i0 (g th) | None => l end) i = Some b ->
  exists a, nth_error l i = Some a /\ R a b.
Proof.
  intros Hrefl Hg i b. destruct (nth_error l i0) as [th|] eqn:E.
  - destruct (Nat.eq_dec i0 i) as [->|N].
    + rewrite nth_error_upd_same by (eapply nth_error_lt; eauto). intros [= <-]. eauto.
    + rewrite nth_error_upd_other by auto. eauto.
  - eauto.
Qed.

Lemma deliver_nth l d i th' :
  nth_error (deliver l d) i = Some th' -> exists th, nth_error l i = Some th /\ same_ctl th th'.
Proof.
  destruct d as [[t v]|]; cbn.
  - apply (nth_error_upd_rel same_ctl (fun th => set_slot th v)); [apply same_ctl_refl|].
    intros a. repeat split; auto.
  - intros H. exists th'. split; auto. apply same_ctl_refl.
Qed.

Lemma mu_same b th : same_ctl th (mu b th).
Proof. destruct b; repeat split; auto. cbn. discriminate. Qed.

Lemma same_ctl_trans a b c : same_ctl a b -> same_ctl b c -> same_ctl a c.
Proof. intros (A1 & A2 & A3 & A4) (B1 & B2 & B3 & B4). repeat split; try congruence. auto. Qed.

Lemma frame_other s t e i th' :
  i <> t -> nth_error (ths (apply_eff s t e)) i = Some th' ->
  exists th, nth_error (ths s) i = Some th /\ same_ctl th th'.
Proof.
  intros N. rewrite ths_apply_eff, nth_error_map, nth_error_upd_other by auto.
  destruct (nth_error (deliver (ths s) (e_deliver e)) i) as [x|] eqn:E; [|cbn; discriminate].
  cbn. intros [= <-]. apply deliver_nth in E as (th & E1 & E2).
  exists th. split; auto. eapply same_ctl_trans; eauto. apply mu_same.
Qed.

Lemma frame_self s t e th :
  nth_error (ths s) t = Some th ->
  nth_error (ths (apply_eff s t e)) t = Some (mu (e_bcast e) (e_th e)).
Proof.
  intros H. rewrite ths_apply_eff, nth_error_map, nth_error_upd_same; auto.
  rewrite deliver_length. eapply nth_error_lt; eauto.
Qed.

Lemma step_runnable s t th o rest :
  nth_error (ths s) t = Some th -> prog th = o :: rest -> parked th = false ->
  step s t = Some (apply_eff s t (section (ch s) th t o rest)).
Proof. intros Et Ep Epk. unfold step. now rewrite Et, Ep, Epk. Qed.

Lemma bcast_section c th t o rest r :
  tpc th = PBcast (Some r) -> section c th t o rest = mkEff c (fin th rest r) None true None.
Proof. intros H. unfold section. now rewrite H. Qed.

Lemma step_fin s t th o rest r :
  nth_error (ths s) t = Some th -> prog th = o :: rest -> parked th = false ->
  e_th (section (ch s) th t o rest) = fin th rest r ->
  exists s' th', step s t = Some s' /\ nth_error (ths s') t = Some th' /\
                 prog th' = rest /\ out th' = out th ++ [r].
Proof.
  intros Et Ep Epk E. eexists _, _. split; [exact (step_runnable s t th o rest Et Ep Epk)|].
  split; [exact (frame_self s t _ th Et)|].
  rewrite E. destruct (e_bcast _); auto.
Qed.

(* No lost wake-up on a buffered channel.  The invariant [nlw]: either some runnable thread still has
   its Broadcast to do, or every parked thread is parked in front of a condition that holds now. *)
Definition waiting_ok (c : chan) (th : thread) : Prop :=
  parked th = true ->
  (tpc th = PSendW /\ len c = cap c /\ closed c = false) \/ (tpc th = PRecvW /\ len c = 0 /\ closed c = false).

(* th is runnable, unfinished and has its Broadcast still to do *)
Definition bcasting (th : thread) : Prop :=
  prog th <> [] /\ parked th = false /\ exists r, tpc th = PBcast r.

Definition pending_bcast (l : list thread) : Prop :=
  exists i th, nth_error l i = Some th /\ bcasting th.

Definition nlw (s : state) : Prop :=
  pending_bcast (ths s) \/ Forall (waiting_ok (ch s)) (ths s).

Lemma pending_bcast_upd l t th th' :
  nth_error l t = Some th -> ~ bcasting th -> pending_bcast l -> pending_bcast (upd l t th').
Proof.
  intros Et Hn (i & b & Ei & Hb). exists i, b. split; auto.
  destruct (Nat.eq_dec t i) as [->|N]; [|now rewrite nth_error_upd_other].
  exfalso. apply Hn. congruence.
Qed.

Lemma nlw_step n s t s' : inv n s -> nlw s -> step s t = Some s' -> nlw s'.
Proof.
  intros (W & Hc & HF & HS) HN H.
  apply step_inv in H as (th & o & rest & Et & Ep & [[Epk ->]|[Epk ->]]).
  - (* spurious wake-up *)
    destruct HN as [HN|HW].
    + left. apply (pending_bcast_upd _ _ th); auto. intros (_ & H & _). congruence.
    + right. cbn [ths ch]. apply Forall_upd; auto. intros H. discriminate.
  - pose proof (Forall_nth_error _ _ _ _ HF Et) as Hpc. cbn beta in Hpc.
    destruct (section_bsec (ch s) th t o rest W Hpc) as [r Hr|c' th' ev Hnb Q].
    + (* Broadcast: nobody stays parked *)
      right. rewrite ths_apply_eff. cbn [e_bcast]. rewrite Forall_map. apply Forall_forall.
      intros x _ Hx. discriminate.
    + unfold nlw, apply_eff. cbn [ths ch e_ch e_th e_deliver e_bcast deliver].
      (* the channel is unchanged: what held of the others still holds *)
      assert (Stay : forall th0, waiting_ok (ch s) th0 ->
                pending_bcast (upd (ths s) t th0) \/ Forall (waiting_ok (ch s)) (upd (ths s) t th0)).
      { intros th0 H0. destruct HN as [HN|HW]; [left|right; now apply Forall_upd].
        apply (pending_bcast_upd _ _ th); auto. intros (_ & _ & r & H). exact (Hnb r H). }
      (* the channel changed: this thread is about to Broadcast *)
      assert (About : forall th0 r, prog th0 = prog th ->
                pending_bcast (upd (ths s) t (goto th0 (PBcast (Some r))))).
      { intros th0 r P0. eexists t, _. rewrite nth_error_upd_same by (eapply nth_error_lt; eauto).
        split; [reflexivity|]. repeat split; cbn; eauto. rewrite P0, Ep. discriminate. }
      destruct Q as [Hl Ec|Hl Ec|v r Hl Ec|r Hl|Ec|r x Hx|].
      * (* the thread parks: its condition holds now *) apply Stay. intros _. left. cbn. auto.
      * apply Stay. intros _. right. cbn. auto.
      * left. now apply About.
      * left. now apply About.
      * left. now apply About.
      * apply Stay. intros H. discriminate.
      * apply Stay. intros H. congruence.
Qed.

Lemma nlw_init n progs : nlw (init n progs).
Proof.
  right. apply Forall_init. intros p H. discriminate.
Qed.

Lemma inv_nlw_run n progs sc : 0 < n -> inv n (run sc (init n progs)) /\ nlw (run sc (init n progs)).
Proof.
  intros H. apply (run_inv (fun s => inv n s /\ nlw s)).
  - intros s t s' [HI HN] E. split; [eapply inv_step|eapply nlw_step]; eauto.
  - split; [apply inv_init, H|apply nlw_init].
Qed.

Definition quiescent (s : state) : Prop := forall th, In th (ths s) -> enabled th = false.

Lemma not_enabled th : enabled th = false -> prog th <> [] -> parked th = true.
Proof. unfold enabled. destruct (prog th); [congruence|]. now destruct (parked th). Qed.

Lemma quiescent_blocked_legit n s :
  cap (ch s) = n -> nlw s -> quiescent s ->
  forall th, In th (ths s) -> prog th <> [] ->
    parked th = true /\
    ((tpc th = PSendW /\ len (ch s) = n /\ closed (ch s) = false) \/
     (tpc th = PRecvW /\ len (ch s) = 0 /\ closed (ch s) = false)).
Proof.
  intros Hc HN Hq th Hin Hp.
  pose proof (not_enabled th (Hq th Hin) Hp) as Hpk. split; auto.
  destruct HN as [(i & b & Ei & Eb1 & Eb2 & _)|HW].
  - apply nth_error_In in Ei. pose proof (not_enabled b (Hq b Ei) Eb1). congruence.
  - rewrite Forall_forall in HW. rewrite <- Hc. exact (HW th Hin Hpk).
Qed.

(* the operations that never wait on a channel of capacity n: ChanTrySend, and ChanTryRecv if the
   channel is buffered (on an unbuffered channel it waits for the sender it chose) *)
Definition nowait_op (n : nat) (o : op) : Prop :=
  match o with OTrySend _ => True | OTryRecv => 0 < n | _ => False end.

Definition try_ok (n : nat) (th : thread) : Prop :=
  match prog th with
  | o :: _ => nowait_op n o -> parked th = false /\ (tpc th = PStart \/ exists r, tpc th = PBcast (Some r))
  | [] => True
  end.

Lemma try_ok_same n a b : same_ctl a b -> try_ok n a -> try_ok n b.
Proof.
  intros (A1 & A2 & A3 & A4). unfold try_ok. rewrite A1, A2. destruct (prog a); auto.
  intros H Ht. destruct (H Ht) as [H1 H2]. split; auto.
  destruct (parked b) eqn:E; auto. specialize (A4 eq_refl). congruence.
Qed.

Lemma try_ok_fin n th rest r : try_ok n (fin th rest r).
Proof. unfold try_ok; cbn. destruct rest; auto. Qed.

Lemma section_prog c th t o rest :
  (exists r, e_th (section c th t o rest) = fin th rest r) \/ prog (e_th (section c th t o rest)) = prog th.
Proof.
  unfold section. destruct (tpc th) as [| | |[r|]| |], o; cbn;
    unfold send_sec, recv_sec, trysend_sec, tryrecv_sec, recv2_sec, noop;
    case_ifs; cbn; eauto.
Qed.

Lemma try_section c th t o rest :
  nowait_op (cap c) o -> tpc th = PStart ->
  e_bcast (section c th t o rest) = false /\
  ((exists r, e_th (section c th t o rest) = fin th rest r) \/
   (exists th0 r, e_th (section c th t o rest) = goto th0 (PBcast (Some r)) /\ prog th0 = prog th)).
Proof.
  intros Ho Hp. unfold section. rewrite Hp. destruct o as [v| |v| |]; try contradiction.
  - unfold trysend_sec. case_ifs; cbn; eauto 6.
  - cbn in Ho. unfold tryrecv_sec. assert ((cap c =? 0) = false) as -> by (apply Nat.eqb_neq; lia).
    case_ifs; cbn; eauto 6.
Qed.

Lemma try_ok_section n c th t o rest :
  cap c = n -> prog th = o :: rest -> try_ok n th -> try_ok n (e_th (section c th t o rest)).
Proof.
  intros <- Ep H.
  destruct (section_prog c th t o rest) as [(r & ->)|Hprog]; [apply try_ok_fin|].
  unfold try_ok in *. rewrite Hprog. rewrite Ep in *. intros Ho.
  destruct (H Ho) as [_ [Hp|(r & Hp)]].
  - destruct (try_section c th t o rest Ho Hp) as (_ & [(r & ->)|(th0 & r & -> & _)]); cbn; eauto.
  - rewrite (bcast_section _ _ _ _ _ _ Hp). cbn. auto.
Qed.

Definition tinv (n : nat) (s : state) : Prop := cap (ch s) = n /\ Forall (try_ok n) (ths s).

Lemma cap_section c th t o rest : cap (e_ch (section c th t o rest)) = cap c.
Proof.
  unfold section. destruct (tpc th) as [| | |[r|]| |], o; cbn;
    unfold send_sec, recv_sec, trysend_sec, tryrecv_sec, recv2_sec, noop;
    case_ifs; reflexivity.
Qed.

Lemma tinv_step n s t s' : tinv n s -> step s t = Some s' -> tinv n s'.
Proof.
  intros (Hc & HF) H.
  apply step_inv in H as (th & o & rest & Et & Ep & [[Epk ->]|[Epk ->]]).
  - split; auto. cbn. apply Forall_upd; auto.
    apply (try_ok_same n th); [exact (mu_same true th)|]. exact (Forall_nth_error _ _ _ _ HF Et).
  - split. { cbn. rewrite cap_section. auto. }
    apply Forall_forall. intros x Hx. apply In_nth_error in Hx as (i & Hi).
    destruct (Nat.eq_dec i t) as [->|N].
    + rewrite (frame_self s t _ th Et) in Hi. injection Hi as <-.
      eapply try_ok_same; [apply mu_same|].
      apply try_ok_section; auto. exact (Forall_nth_error _ _ _ _ HF Et).
    + apply frame_other in Hi as (th0 & E0 & Hs); auto.
      eapply try_ok_same; eauto. exact (Forall_nth_error _ _ _ _ HF E0).
Qed.

Lemma tinv_init n progs : tinv n (init n progs).
Proof.
  split; auto. apply Forall_init. intros p. unfold try_ok; cbn. destruct p; auto.
Qed.

Lemma tinv_run n progs sc : tinv n (run sc (init n progs)).
Proof. apply (run_inv (tinv n) (tinv_step n)), tinv_init. Qed.

(* thread t has finished the operation in front of rest *)
Definition done_op (t : nat) (rest : list op) (s : state) : Prop :=
  exists th, nth_error (ths s) t = Some th /\ prog th = rest.

Lemma try_never_blocks n s t th o rest :
  tinv n s ->
  nth_error (ths s) t = Some th -> prog th = o :: rest -> nowait_op n o ->
  parked th = false /\
  exists s1, step s t = Some s1 /\
    (done_op t rest s1 \/ exists s2, step s1 t = Some s2 /\ done_op t rest s2).
Proof.
  intros [Hc HF] Et Ep Ho.
  pose proof (Forall_nth_error _ _ _ _ HF Et) as H0. unfold try_ok in H0. rewrite Ep in H0.
  destruct (H0 Ho) as [Hpk [Hp|(r & Hp)]]. all: split; auto.
  - rewrite <- Hc in Ho.
    destruct (try_section (ch s) th t o rest Ho Hp) as (Hb & [(r & E)|(th0 & r & E & P0)]).
    + (* it fails at once *)
      destruct (step_fin s t th o rest r Et Ep Hpk E) as (s1 & th1 & S1 & N1 & P1 & _).
      exists s1. split; auto. left. exists th1. auto.
    + (* it still has to Broadcast *)
      eexists. split; [exact (step_runnable s t th o rest Et Ep Hpk)|]. right.
      pose proof (frame_self s t (section (ch s) th t o rest) th Et) as Hself.
      rewrite Hb, E in Hself. cbn [mu] in Hself.
      destruct (step_fin _ t _ o rest r Hself) as (s2 & th2 & S2 & N2 & P2 & _);
        [cbn; congruence|reflexivity|reflexivity|].
      exists s2. split; auto. exists th2. auto.
  - destruct (step_fin s t th o rest r Et Ep Hpk) as (s1 & th1 & S1 & N1 & P1 & _);
      [now rewrite (bcast_section _ _ _ _ _ _ Hp)|].
    exists s1. split; auto. left. exists th1. auto.
Qed.

Definition ev_recv (e : option event) : list N :=
  match e with Some (ERecv v) => [v] | _ => [] end.

Lemma received_section c th t o rest :
  received_by (e_th (section c th t o rest)) = received_by th ++ ev_recv (e_ev (section c th t o rest)).
Proof.
  unfold section, received_by, pending_res.
  destruct (tpc th) as [| | |[r|]| |] eqn:Epc, o; cbn;
    unfold send_sec, recv_sec, trysend_sec, tryrecv_sec, recv2_sec, noop;
    case_ifs.
  (* every goal is one branch, with its new thread and its event written out: compute the results
     of the new thread (out ++ what it is about to return) on both sides *)
  all: cbn; rewrite ?Epc; cbn; rewrite ?flat_map_app; cbn; rewrite ?app_nil_r; reflexivity.
Qed.

Lemma received_same a b : same_ctl a b -> received_by b = received_by a.
Proof. intros (A1 & A2 & A3 & A4). unfold received_by, pending_res. now rewrite A2, A3. Qed.

Definition tie (s : state) : Prop :=
  forall t th, nth_error (ths s) t = Some th -> received_by th = rcvd_of (events_of t (log s)).

Lemma events_of_snoc_other i t x l : i <> t -> events_of i (l ++ [(t, x)]) = events_of i l.
Proof.
  intros N. unfold events_of. rewrite filter_app. cbn.
  destruct (Nat.eqb_spec t i); [congruence|]. now rewrite app_nil_r.
Qed.

Lemma events_of_snoc_self t x l : events_of t (l ++ [(t, x)]) = events_of t l ++ [x].
Proof.
  unfold events_of. rewrite filter_app. cbn. rewrite Nat.eqb_refl. now rewrite map_app.
Qed.

Lemma rcvd_of_snoc l x : rcvd_of (l ++ [x]) = rcvd_of l ++ ev_recv (Some x).
Proof. unfold rcvd_of. rewrite flat_map_app. cbn. destruct x; cbn; now rewrite ?app_nil_r. Qed.

Lemma tie_step s t s' : tie s -> step s t = Some s' -> tie s'.
Proof.
  intros HT H.
  apply step_inv in H as (th & o & rest & Et & Ep & [[Epk ->]|[Epk ->]]).
  - intros i x Hi. cbn [ths log] in *.
    destruct (Nat.eq_dec t i) as [->|N].
    + rewrite nth_error_upd_same in Hi by (eapply nth_error_lt; eauto). injection Hi as <-.
      rewrite <- (HT _ _ Et). exact (received_same _ _ (mu_same true th)).
    + rewrite nth_error_upd_other in Hi by auto. auto.
  - set (e := section (ch s) th t o rest). intros i x Hi.
    assert (Hlog : log (apply_eff s t e) = match e_ev e with Some ev => log s ++ [(t, ev)] | None => log s end)
      by reflexivity.
    destruct (Nat.eq_dec i t) as [->|N].
    + rewrite (frame_self s t e th Et) in Hi. injection Hi as <-.
      rewrite (received_same _ _ (mu_same _ _)). unfold e at 1. rewrite received_section. fold e.
      rewrite (HT _ _ Et), Hlog. destruct (e_ev e) as [ev|].
      * now rewrite events_of_snoc_self, rcvd_of_snoc.
      * cbn. now rewrite app_nil_r.
    + apply frame_other in Hi as (th0 & E0 & Hs); auto.
      rewrite (received_same _ _ Hs), (HT _ _ E0), Hlog.
      destruct (e_ev e); auto. now rewrite events_of_snoc_other.
Qed.

Lemma tie_init n progs : tie (init n progs).
Proof.
  intros t th H. cbn in H. rewrite nth_error_map in H.
  destruct (nth_error progs t); cbn in H; [|discriminate]. injection H as <-. reflexivity.
Qed.

(* Witnesses of the defects, replayed on the real code by props/C10/check.py: [w_X] is the triple
   (capacity, programs, schedule), [final_X] the lemma about the state [final w_X] it ends in.
   (C10/SelProofs.v: [xw_X] the triple, [w_X] the lemma about [xfinal xw_X].)
   Props.v calls the first two F4 and F19. *)
Definition w_recv_blocked_after_delivery : nat * list (list op) * schedule :=
  (0%nat, [[ORecv]; [ORecv]; [OSend 7]], [0;0;0;1;2;2;1;0;1;1;0]%nat).
Definition w_recv_delivered_reported_closed : nat * list (list op) * schedule :=
  (0%nat, [[ORecv]; [OSend 7; OClose]], [0;0;0;1;1;1;0;1]%nat).
Definition w_tryrecv_blocks : nat * list (list op) * schedule :=
  (0%nat, [[OSend 7; ORecv]; [OTryRecv]], [0;1;1;0;0;0;0;1;0]%nat).

Definition final (w : nat * list (list op) * schedule) : state :=
  let '(n, progs, sc) := w in run sc (init n progs).

(* The *_refuted theorems of Props.v speak of [run sc (init n progs)] for some n, progs, sc.  Rewriting with
   this equation turns that into [final (n, progs, sc)], which a lemma about [final w] matches by unfolding
   w alone.  Left to itself the conversion check unfolds the run on both sides and compares the
   unevaluated states, far slower than evaluating once. *)
Lemma final_eq n progs sc : run sc (init n progs) = final (n, progs, sc).
Proof. reflexivity. Qed.


Lemma final_recv_blocked_after_delivery :
  let s := final w_recv_blocked_after_delivery in
  quiescent s /\ In (ESend 7%N) (events s) /\
  (exists th, nth_error (ths s) 0 = Some th /\ prog th = [ORecv] /\ parked th = true /\ slot th = 7%N) /\
  (forall th, In th (ths s) -> ~ In 7%N (received_by th)).
Proof.
  vm_compute. repeat split.
  - intros th [<-|[<-|[<-|[]]]]; reflexivity.
  - auto.
  - eexists; repeat split.
  - intros th [<-|[<-|[<-|[]]]]; cbn; tauto.
Qed.

Lemma final_recv_delivered_reported_closed :
  let s := final w_recv_delivered_reported_closed in
  (forall th, In th (ths s) -> prog th = []) /\ In (ESend 7%N) (events s) /\
  (exists th, nth_error (ths s) 0 = Some th /\ out th = [RRecv false 7%N]) /\
  (exists th, nth_error (ths s) 1 = Some th /\ out th = [RSend true; RClose]).
Proof.
  vm_compute. repeat split.
  - intros th [<-|[<-|[]]]; reflexivity.
  - auto.
  - eexists; repeat split.
  - eexists; repeat split.
Qed.

Lemma final_tryrecv_blocks :
  let s := final w_tryrecv_blocks in
  quiescent s /\
  (exists th, nth_error (ths s) 1 = Some th /\ prog th = [OTryRecv] /\ parked th = true /\ slot th = 7%N) /\
  (exists th, nth_error (ths s) 0 = Some th /\ out th = [RSend true]).
Proof.
  vm_compute. repeat split.
  - intros th [<-|[<-|[]]]; reflexivity.
  - eexists; repeat split.
  - eexists; repeat split.
Qed.

(* the repaired defects: F5, and (PSendW) the sender parked on a full buffer that did not notice close *)
Lemma section_closed_panics c th t o rest :
  closed c = true ->
  match o, tpc th with
  | OSend _, PStart | OSend _, PSendW | OTrySend _, PStart | OClose, PStart => True
  | _, _ => False
  end ->
  e_th (section c th t o rest) = fin th rest RPanic.
Proof.
  intros Ec H. unfold section. destruct o, (tpc th); try contradiction.
  all: unfold send_sec, trysend_sec; destruct (cap c =? 0); cbn [closed set_sends];
    rewrite Ec, ?andb_false_r; case_ifs; reflexivity.
Qed.

