(* C10 - proofs about the select model (C10/SelModel.v): control-state frame lemmas, every call commits at
   most once (all schedules), and the witnesses of the recorded select defects. *)
From LLGoV Require Import Lib.Common C10.Model C10.Proofs C10.SelModel.

(* control state (results, program counter, program) is changed only by the stepping thread *)
Definition ctl_eq (a b : xthread) : Prop := xout b = xout a /\ xtpc b = xtpc a /\ xprog b = xprog a.

Lemma ctl_refl a : ctl_eq a a. Proof. repeat split. Qed.
Lemma ctl_trans a b c : ctl_eq a b -> ctl_eq b c -> ctl_eq a c.
Proof. intros (A1 & A2 & A3) (B1 & B2 & B3). repeat split; congruence. Qed.

Definition ctl_pres (f : list xthread -> list xthread) : Prop :=
  forall l i b, nth_error (f l) i = Some b -> exists a, nth_error l i = Some a /\ ctl_eq a b.

Lemma xdeliver_pres d : ctl_pres (fun l => xdeliver l d).
Proof.
  intros l i b. unfold xdeliver. destruct d as [[w v]|].
  - apply (nth_error_upd_rel ctl_eq); [apply ctl_refl|]. intros a. repeat split.
  - intros H. exists b. split; auto. apply ctl_refl.
Qed.

Lemma notify_all_pres sops : ctl_pres (notify_all sops).
Proof.
  induction sops as [|t r IH]; intros l i b; cbn.
  - intros H. exists b. split; auto. apply ctl_refl.
  - intros H. apply IH in H as (a & H & R).
    apply (nth_error_upd_rel ctl_eq notify1) in H as (a0 & H0 & R0).
    + exists a0. split; auto. eapply ctl_trans; eauto.
    + apply ctl_refl.
    + intros x. repeat split.
Qed.

Lemma wake_pres k : ctl_pres (map (wake_chan k)).
Proof.
  intros l i b. rewrite nth_error_map. destruct (nth_error l i) as [a|]; cbn; [|discriminate].
  intros [= <-]. exists a. split; auto. unfold wake_chan.
  destruct (xpark a) as [[k'|]|]; try apply ctl_refl. destruct (k' =? k); repeat split.
Qed.

Lemma xdeliver_length l d : length (xdeliver l d) = length l.
Proof. unfold xdeliver. destruct d as [[w v]|]; auto. destruct (nth_error l (Nat.div w 8)); auto. apply upd_length. Qed.

Lemma apply_step_threads s t x th i b :
  nth_error (xths s) t = Some th ->
  nth_error (xths (apply_step s t x)) i = Some b ->
  (i = t /\ ctl_eq (st_th x) b) \/ (i <> t /\ exists a, nth_error (xths s) i = Some a /\ ctl_eq a b).
Proof.
  intros Et H. unfold apply_step in H. cbn [xths] in H.
  set (l1 := upd (xdeliver (xths s) (st_deliver x)) t (st_th x)) in *.
  assert (H1 : exists a, nth_error l1 i = Some a /\ ctl_eq a b).
  { destruct (st_bcast x) as [k|].
    - apply wake_pres in H as (a & H & R).
      destruct (st_notify x).
      + apply notify_all_pres in H as (a0 & H0 & R0). exists a0. split; auto. eapply ctl_trans; eauto.
      + eauto.
    - destruct (st_notify x).
      + apply notify_all_pres in H as (a0 & H0 & R0). eauto.
      + exists b. split; auto. apply ctl_refl. }
  destruct H1 as (a & H1 & R). unfold l1 in H1.
  destruct (Nat.eq_dec i t) as [->|N].
  - left. split; auto. rewrite nth_error_upd_same in H1. { injection H1 as <-. exact R. }
    rewrite xdeliver_length. eapply nth_error_lt; eauto.
  - right. split; auto. rewrite nth_error_upd_other in H1 by auto.
    apply xdeliver_pres in H1 as (a0 & H0 & R0). exists a0. split; auto. eapply ctl_trans; eauto.
Qed.

Definition is_commit (e : event) : bool := match e with ESend _ | ERecv _ => true | _ => false end.

Definition commits (t : nat) (l : list (nat * nat * event)) : nat :=
  length (filter (fun x => Nat.eqb (fst (fst x)) t && is_commit (snd x)) l).

(* the call has committed and is on its way out (Broadcast, endSelect) *)
Definition inflight (p : xpc) : nat :=
  match p with
  | XBcast (Some _) | STryB _ (Some _) | SEnd _ _ | TTryB _ (Some _) => 1
  | _ => 0
  end.

Definition ev_commit (e : option event) : nat :=
  match e with Some x => if is_commit x then 1 else 0 | None => 0 end.

Definition credit (th : xthread) : nat := length (xout th) + inflight (xtpc th).

(* A section / a step of th pays for its event: a commit event comes only with xfin or with a goto into
   an in-flight program counter, and a thread in flight logs nothing until it has finished.  That is
   a fact about the shape of every branch, whatever the channel holds: the proofs split on the branch
   conditions and never look into the probes. *)
Definition eff_pays (th : xthread) (e : xeff) : Prop := ev_commit (f_ev e) + credit th <= credit (f_th e).
Definition step_pays (th : xthread) (x : xstep) : Prop := ev_commit (st_ev x) + credit th <= credit (st_th x).

Ltac case_matches := repeat match goal with |- context [match ?x with _ => _ end] => destruct x end.
Ltac tally := unfold credit; cbn; rewrite ?app_length; cbn; lia.

Lemma xnoop_pays c th : eff_pays th (xnoop c th).
Proof. unfold eff_pays. tally. Qed.

Section NotInFlight.
Variables (c : chan) (th : xthread) (rest : list xop).
Hypothesis Z : inflight (xtpc th) = 0.

Lemma xsend_sec_pays k v : eff_pays th (xsend_sec c th rest k v).
Proof. unfold eff_pays, credit at 1, xsend_sec. rewrite Z. case_matches; tally. Qed.

Lemma xrecv_sec_pays k t : eff_pays th (xrecv_sec c th rest k t).
Proof. unfold eff_pays, credit at 1, xrecv_sec. rewrite Z. case_matches; tally. Qed.

Lemma xrecv2_sec_pays k try : eff_pays th (xrecv2_sec c th rest k try).
Proof. unfold eff_pays, credit at 1, xrecv2_sec. rewrite Z. case_matches; tally. Qed.

Lemma xtrysend_sec_pays v : eff_pays th (xtrysend_sec c th rest v).
Proof. unfold eff_pays, credit at 1, xtrysend_sec. rewrite Z. case_matches; tally. Qed.

Lemma xtryrecv_sec_pays t : eff_pays th (xtryrecv_sec c th rest t).
Proof. unfold eff_pays, credit at 1, xtryrecv_sec. rewrite Z. case_matches; tally. Qed.
End NotInFlight.

Lemma xplain_section_pays c th t k o rest : eff_pays th (xplain_section c th t k o rest).
Proof.
  unfold xplain_section.
  destruct (xtpc th) eqn:E; try apply xnoop_pays.
  all: assert (Z : inflight (xtpc th) = 0) by (rewrite E; reflexivity).
  all: destruct o; try apply xnoop_pays.
  all: auto using xsend_sec_pays, xrecv_sec_pays, xrecv2_sec_pays, xtrysend_sec_pays, xtryrecv_sec_pays.
  (* XStart, OClose *)
  unfold eff_pays, credit at 1. rewrite Z. case_matches; tally.
Qed.

Lemma plain_step_pays chs th t k o rest : step_pays th (plain_step chs th t k o rest).
Proof.
  unfold plain_step.
  destruct (xtpc th) eqn:E; try apply xplain_section_pays.
  unfold step_pays, credit at 1. rewrite E. case_matches; tally.
Qed.

Lemma select_step_pays chs th t cs rest : step_pays th (select_step chs th t cs rest).
Proof.
  unfold step_pays, select_step, pure_step.
  destruct (xtpc th) eqn:E; case_matches; unfold credit; cbn; rewrite ?E; tally.
Qed.

Lemma tryselect_step_pays chs th t cs rest : step_pays th (tryselect_step chs th t cs rest).
Proof.
  unfold step_pays, tryselect_step, pure_step.
  destruct (xtpc th) eqn:E; case_matches; unfold credit; cbn; rewrite ?E; tally.
Qed.

Lemma xstep_of_pays s t th o rest : step_pays th (xstep_of s t th o rest).
Proof.
  destruct o; [apply plain_step_pays|apply select_step_pays|apply tryselect_step_pays].
Qed.

Definition cinv (s : xstate) : Prop :=
  forall t th, nth_error (xths s) t = Some th ->
    commits t (xlog s) <= credit th.

Lemma credit_ctl a b : ctl_eq a b -> credit b = credit a.
Proof. intros (R1 & R2 & _). unfold credit. now rewrite R1, R2. Qed.

Lemma commits_snoc_other i t k e l : i <> t -> commits i (l ++ [(t, k, e)]) = commits i l.
Proof.
  intros N. unfold commits. rewrite filter_app, app_length. cbn.
  destruct (Nat.eqb_spec t i); [congruence|]. cbn. lia.
Qed.

Lemma commits_snoc_self t k e l : commits t (l ++ [(t, k, e)]) = commits t l + ev_commit (Some e).
Proof.
  unfold commits. rewrite filter_app, app_length. cbn. rewrite Nat.eqb_refl. cbn.
  destruct (is_commit e); cbn; lia.
Qed.

Lemma cinv_step s t s' : cinv s -> x_step s t = Some s' -> cinv s'.
Proof.
  intros HI H. unfold x_step in H.
  destruct (nth_error (xths s) t) as [th|] eqn:Et; [|discriminate].
  destruct (xprog th) as [|o rest] eqn:Ep; [discriminate|].
  destruct (xpark th) as [w|] eqn:Epk; injection H as <-.
  - (* spurious wake-up *)
    intros i b Hi. cbn [xths xlog] in *.
    destruct (Nat.eq_dec t i) as [->|N].
    + rewrite nth_error_upd_same in Hi by (eapply nth_error_lt; eauto). injection Hi as <-.
      exact (HI _ _ Et).
    + rewrite nth_error_upd_other in Hi by auto. auto.
  - set (x := xstep_of s t th o rest).
    intros i b Hi.
    assert (Hlog : xlog (apply_step s t x) = match st_ev x with Some e => xlog s ++ [(t, st_k x, e)] | None => xlog s end)
      by reflexivity.
    destruct (apply_step_threads s t x th i b Et Hi) as [(-> & R)|(N & a & Ha & R)].
    + rewrite (credit_ctl _ _ R), Hlog.
      pose proof (xstep_of_pays s t th o rest) as SC. fold x in SC. unfold step_pays in SC.
      pose proof (HI _ _ Et) as H0.
      destruct (st_ev x) as [e|].
      * rewrite commits_snoc_self. cbn [ev_commit] in *. lia.
      * cbn [ev_commit] in SC. lia.
    + rewrite (credit_ctl _ _ R), Hlog.
      pose proof (HI _ _ Ha) as H0.
      destruct (st_ev x); [rewrite commits_snoc_other by auto|]; exact H0.
Qed.

Lemma cinv_run sc : forall s, cinv s -> cinv (x_run sc s).
Proof. apply (run_invariant x_step x_run); [reflexivity | reflexivity | apply cinv_step]. Qed.

Lemma cinv_init caps progs : cinv (x_init caps progs).
Proof. intros t th H. cbn. lia. Qed.

(* witnesses of the select defects (replayed on the real code by props/C10/check.py): [xw_X] is the triple
   (capacities, programs, schedule), [w_X] the lemma about the state [xfinal xw_X] it ends in *)
Definition xw_default_not_atomic : list nat * list (list xop) * schedule :=
  ([1]%nat, [[XTrySelect [CRecv 0; CSend 0 12]]; [XPlain 0 (OSend 13)]], [0;1;1;0]%nat).
Definition xw_mirrored_selects : list nat * list (list xop) * schedule :=
  ([0]%nat, [[XSelect [CRecv 0; CSend 0 11]]; [XSelect [CSend 0 12; CRecv 0]]],
   [0;0;0;0;0;0;0;0;1;0;0;0;0;1;1;1;1;1;1;1]%nat).
Definition xw_tryselect_blocks : list nat * list (list xop) * schedule :=
  ([0;0]%nat, [[XSelect [CSend 1 11; CSend 0 12]; XPlain 1 (OSend 13)]; [XTrySelect [CRecv 0; CSend 0 14]]; [XPlain 0 ORecv]],
   [0;2;2;0;0;0;2;0;1;1;0;0;0;1]%nat).
Definition xw_select_stuck_pair : list nat * list (list xop) * schedule :=
  ([0;0]%nat, [[XSelect [CRecv 0; CRecv 1]]; [XPlain 1 ORecv]; [XSelect [CSend 1 11; CRecv 0]; XPlain 0 (OSend 12)]],
   [0;1;2;2;1;0;2;0;0;2;1;0;0;2;0;2;0;2;0;2]%nat).

Definition xfinal (w : list nat * list (list xop) * schedule) : xstate :=
  let '(caps, progs, sc) := w in x_run sc (x_init caps progs).
Definition xquiescent (s : xstate) : Prop := forall th, In th (xths s) -> x_enabled th = false.

(* used as final_eq of C10/Proofs.v *)
Lemma xfinal_eq caps progs sc : x_run sc (x_init caps progs) = xfinal (caps, progs, sc).
Proof. reflexivity. Qed.

(* the channel has capacity 1: at every instant it is not full (send case ready) or not
   empty (receive case ready); the select with default still reports "no case ready" *)
Lemma w_default :
  let s := xfinal xw_default_not_atomic in
  map xout (xths s) = [[XDefault]; [XR (RSend true)]] /\ map xchan_obs (xchs s) = [(0, 1, 0, 0, false, 0)]%nat.
Proof. vm_compute. auto. Qed.

Lemma w_mirrored :
  let s := xfinal xw_mirrored_selects in
  xquiescent s /\ map xtpc (xths s) = [SWaitW; SWaitW] /\ map xout (xths s) = [[]; []].
Proof. vm_compute. repeat split. intros th [<-|[<-|[]]]; reflexivity. Qed.

Lemma w_tryselect_blocks :
  let s := xfinal xw_tryselect_blocks in
  xquiescent s /\
  exists th, nth_error (xths s) 1 = Some th /\ xprog th = [XTrySelect [CRecv 0; CSend 0 14]] /\
             xtpc th = TTry2W 0 /\ xpark th = Some (OnChan 0) /\ xslots th = [0%N; 0%N].
Proof. vm_compute. repeat split. - intros th [<-|[<-|[<-|[]]]]; reflexivity. - eexists; repeat split. Qed.

Lemma w_stuck_pair :
  let s := xfinal xw_select_stuck_pair in
  xquiescent s /\
  (exists th, nth_error (xths s) 0 = Some th /\ xprog th = [XSelect [CRecv 0; CRecv 1]] /\ xtpc th = STry2W 1) /\
  (exists th, nth_error (xths s) 2 = Some th /\ xprog th = [XPlain 0 (OSend 12)] /\ xtpc th = XSendW).
Proof. vm_compute. repeat split. - intros th [<-|[<-|[<-|[]]]]; reflexivity. - eexists; repeat split. - eexists; repeat split. Qed.

(* two selects, one sends on channel 1, the other receives on it but also has a send case on
   channel 0 (lower address): the receiver probes its sends first and then refuses
   select-senders; both sleep for ever *)
Definition xw_sendfirst_refuses : list nat * list (list xop) * schedule :=
  ([0;0]%nat, [[XSelect [CRecv 1; CSend 0 12]]; [XSelect [CSend 1 15; CSend 1 16]]],
   [0;0;0;0;0;0;0;0;1;0;0;0;0;1;0;0;0;0;1;1;1;1;1;1]%nat).

Lemma w_sendfirst :
  let s := xfinal xw_sendfirst_refuses in
  xquiescent s /\ map xtpc (xths s) = [SWaitW; SWaitW] /\ map xout (xths s) = [[]; []].
Proof. vm_compute. repeat split. intros th [<-|[<-|[]]]; reflexivity. Qed.
