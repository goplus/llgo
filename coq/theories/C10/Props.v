(* C10 - property theorems only.  Model: C10/Model.v, an interleaving semantics of
   ChanSend / ChanRecv / ChanTrySend / ChanTryRecv / ChanClose of z_chan.go on one
   channel: [run sc (init n progs)] is the state after the schedule sc (any list of
   thread ids; a step of a parked thread is a spurious wake-up) from n = capacity and
   any number of threads with any programs.  Every theorem quantifies over ALL
   schedules and all thread sets; nothing is proved by exploration.
   The buffered channel (n > 0) refines Go's channel (the executable specification
   [spec_step]), including the panics: a send that finds the channel closed panics
   (event ESendClosed, result RPanic), so does close of a closed channel (ECloseClosed)
   - finding F5 is repaired in the modelled code.
   For the unbuffered channel the exactly-once / liveness statements are false of the
   code: the *_refuted theorems give explicit schedules (replayed on the real z_chan.go by
   props/C10/check.py on every run). *)
From LLGoV Require Import Lib.Common C10.Model C10.Proofs C10.SelModel C10.SelProofs.

(* the sequence of Go-level events of every execution is one that Go's channel
   semantics allows, and the ring buffer holds exactly the specification's queue *)
Theorem buffered_refines_go_channel : forall n progs sc, 0 < n ->
  spec_run n (mkSpec [] false) (events (run sc (init n progs)))
  = Some (abs (run sc (init n progs))).
Proof. intros n progs sc H. apply (inv_run n progs sc H). Qed.
Print Assumptions buffered_refines_go_channel.

Theorem buffered_never_exceeds_cap : forall n progs sc, 0 < n ->
  len (ch (run sc (init n progs))) <= n /\
  length (contents (ch (run sc (init n progs)))) <= n.
Proof.
  intros n progs sc H. destruct (inv_run n progs sc H) as ((_ & _ & _ & Hl) & Hc & _).
  rewrite contents_length. lia.
Qed.
Print Assumptions buffered_never_exceeds_cap.

(* FIFO, at most once, and exactly once up to what is still buffered: the values
   received so far, in the order of the receives, followed by the buffer contents,
   are the values sent so far in the order of the sends *)
Theorem buffered_fifo_exactly_once : forall n progs sc, 0 < n ->
  sent_of (events (run sc (init n progs))) =
  rcvd_of (events (run sc (init n progs))) ++ contents (ch (run sc (init n progs))).
Proof. intros n progs sc H. apply (spec_fifo n _ _ _ (buffered_refines_go_channel n progs sc H)). Qed.
Print Assumptions buffered_fifo_exactly_once.

(* the receive events are what the calls return (any capacity): for every thread,
   the values its ChanRecv/ChanTryRecv calls returned with ok = true (including the
   result already fixed for a call that is about to Broadcast) are exactly its ERecv
   events, in order *)
Theorem recv_results_are_the_logged_receives : forall n progs sc t th,
  nth_error (ths (run sc (init n progs))) t = Some th ->
  received_by th = rcvd_of (events_of t (log (run sc (init n progs)))).
Proof. intros n progs sc. apply (run_inv tie tie_step), tie_init. Qed.
Print Assumptions recv_results_are_the_logged_receives.

(* close, then drain, then zero/ok=false: a receive reports "closed" only after a
   close and when everything sent before has been received; nothing is sent after close *)
Theorem close_drains_then_zero : forall n progs sc l1 l2, 0 < n ->
  events (run sc (init n progs)) = l1 ++ ERecvClosed :: l2 ->
  In EClose l1 /\ sent_of l1 = rcvd_of l1.
Proof.
  intros n progs sc l1 l2 H E. pose proof (buffered_refines_go_channel n progs sc H) as R. rewrite E in R.
  rewrite spec_run_app in R. destruct (spec_run n _ l1) as [a1|] eqn:R1; [|discriminate]. cbn in R.
  destruct (sq a1) eqn:Eq; [|discriminate]. destruct (sclosed a1) eqn:Ec; [|discriminate].
  split.
  - eapply spec_closed_needs_close; eauto.
  - pose proof (spec_fifo n _ _ _ R1) as F. rewrite Eq, app_nil_r in F. exact F.
Qed.
Print Assumptions close_drains_then_zero.

Theorem nothing_sent_after_close : forall n progs sc l1 l2, 0 < n ->
  events (run sc (init n progs)) = l1 ++ EClose :: l2 -> sent_of l2 = [].
Proof.
  intros n progs sc l1 l2 H E. pose proof (buffered_refines_go_channel n progs sc H) as R. rewrite E in R.
  rewrite spec_run_app in R. destruct (spec_run n _ l1) as [a1|]; [|discriminate]. cbn in R.
  destruct (sclosed a1); [discriminate|].
  eapply spec_closed_stays in R; [tauto|reflexivity].
Qed.
Print Assumptions nothing_sent_after_close.

(* no lost wake-up: whenever no thread can run, every unfinished thread is parked
   where Go would block it too - a sender in front of a full buffer of an OPEN
   channel (a sender parked on a full buffer notices close: the former defect
   send_full_then_close is repaired), a receiver in front of an empty open channel. *)
Theorem buffered_no_lost_wakeup : forall n progs sc, 0 < n ->
  let s := run sc (init n progs) in
  (forall th, In th (ths s) -> enabled th = false) ->
  forall th, In th (ths s) -> prog th <> [] ->
    parked th = true /\
    ((tpc th = PSendW /\ len (ch s) = n /\ closed (ch s) = false) \/
     (tpc th = PRecvW /\ len (ch s) = 0 /\ closed (ch s) = false)).
Proof.
  intros n progs sc Hn. destruct (inv_nlw_run n progs sc Hn) as [(_ & Hc & _) HN].
  exact (quiescent_blocked_legit n _ Hc HN).
Qed.
Print Assumptions buffered_no_lost_wakeup.

(* close wakes everybody: once the channel is closed, a state in which nobody can
   run has no unfinished thread at all (blocked receivers returned zero/ok=false,
   blocked senders panicked) *)
Theorem buffered_close_leaves_nobody_blocked : forall n progs sc, 0 < n ->
  let s := run sc (init n progs) in
  (forall th, In th (ths s) -> enabled th = false) -> closed (ch s) = true ->
  forall th, In th (ths s) -> prog th = [].
Proof.
  intros n progs sc Hn s Hq Hc th Hin.
  destruct (prog th) eqn:E; auto. exfalso.
  destruct (buffered_no_lost_wakeup n progs sc Hn Hq th Hin) as [_ [(_ & _ & H)|(_ & _ & H)]];
    try (rewrite E; discriminate); fold s in H; congruence.
Qed.
Print Assumptions buffered_close_leaves_nobody_blocked.

(* hence no blocked sender together with a blocked receiver *)
Theorem buffered_no_stuck_pair : forall n progs sc, 0 < n ->
  let s := run sc (init n progs) in
  (forall th, In th (ths s) -> enabled th = false) ->
  forall a b, In a (ths s) -> In b (ths s) -> prog a <> [] -> prog b <> [] ->
    tpc a = PSendW -> tpc b = PRecvW -> False.
Proof.
  intros n progs sc Hn s Hq a b Ha Hb Pa Pb Ta Tb.
  destruct (buffered_no_lost_wakeup n progs sc Hn Hq a Ha Pa) as [_ [[_ [H1 _]]|[H1 _]]]; [|congruence].
  destruct (buffered_no_lost_wakeup n progs sc Hn Hq b Hb Pb) as [_ [[H2 _]|[_ [H2 _]]]]; [congruence|].
  fold s in H1, H2. lia.
Qed.
Print Assumptions buffered_no_stuck_pair.

(* ChanTrySend (any capacity) and ChanTryRecv (buffered) never wait: in every
   reachable state the thread is runnable and finishes the call within two of its
   own steps, whatever the others do.  Partial: ChanTryRecv on an unbuffered channel
   does wait for the sender it chose (tryrecv_unbuffered_never_blocks_refuted). *)
Theorem try_ops_never_block_partial : forall n progs sc t th o rest,
  let s := run sc (init n progs) in
  nth_error (ths s) t = Some th -> prog th = o :: rest ->
  match o with OTrySend _ => True | OTryRecv => 0 < n | _ => False end ->
  parked th = false /\
  exists s1, step s t = Some s1 /\
    (done_op t rest s1 \/ exists s2, step s1 t = Some s2 /\ done_op t rest s2).
Proof. intros n progs sc t th o rest s. apply try_never_blocks, tinv_run. Qed.
Print Assumptions try_ops_never_block_partial.

Example nontrivial_run :
  let s := run [0;1;0;2;1;2;0;0;1;1;2;2]%nat (init 2 [[OSend 5; OSend 6]; [ORecv; OClose]; [OTryRecv; ORecv]]) in
  events s = [ESend 5%N; ERecv 5%N; ETryRecvEmpty; ESend 6%N; EClose; ERecv 6%N].
Proof. reflexivity. Qed.

(* defects of the unchanged tree: explicit schedules *)

(* F4: unbuffered, two receivers and one sender.  7 was sent (ChanSend returned
   true) and sits in receiver 0's buffer, nobody can run any more, receiver 0 is
   still parked inside ChanRecv and no call has returned 7. *)
Theorem recv_returns_after_delivery_refuted :
  exists n progs sc, let s := run sc (init n progs) in
    (forall th, In th (ths s) -> enabled th = false) /\ In (ESend 7%N) (events s) /\
    (exists th, nth_error (ths s) 0 = Some th /\ prog th = [ORecv] /\ parked th = true /\ slot th = 7%N) /\
    (forall th, In th (ths s) -> ~ In 7%N (received_by th)).
Proof. eexists _, _, _. rewrite final_eq. exact final_recv_blocked_after_delivery. Qed.
Print Assumptions recv_returns_after_delivery_refuted.

(* F19: unbuffered; the sender's call returned true, then close; the receiver
   returns ok = false with the delivered 7 in its buffer: the value is lost *)
Theorem recv_ok_after_delivery_refuted :
  exists n progs sc, let s := run sc (init n progs) in
    (forall th, In th (ths s) -> prog th = []) /\ In (ESend 7%N) (events s) /\
    (exists th, nth_error (ths s) 0 = Some th /\ out th = [RRecv false 7%N]) /\
    (exists th, nth_error (ths s) 1 = Some th /\ out th = [RSend true; RClose]).
Proof. eexists _, _, _. rewrite final_eq. exact final_recv_delivered_reported_closed. Qed.
Print Assumptions recv_ok_after_delivery_refuted.

(* F5 repaired - send on a closed channel panics (any capacity, any state): a thread
   at the opening Lock of ChanSend, woken from ChanSend's Wait, or at the opening Lock
   of ChanTrySend finishes that call with a panic in its next step *)
Theorem send_on_closed_panics : forall s t th v rest,
  nth_error (ths s) t = Some th -> parked th = false -> closed (ch s) = true ->
  (prog th = OSend v :: rest /\ (tpc th = PStart \/ tpc th = PSendW)) \/
  (prog th = OTrySend v :: rest /\ tpc th = PStart) ->
  exists s' th', step s t = Some s' /\ nth_error (ths s') t = Some th' /\
                 prog th' = rest /\ out th' = out th ++ [RPanic].
Proof.
  intros s t th v rest Et Epk Ec [(Ep & [Hp|Hp])|(Ep & Hp)].
  all: eapply step_fin; eauto; apply section_closed_panics; auto; rewrite Hp; exact I.
Qed.
Print Assumptions send_on_closed_panics.

Theorem close_of_closed_panics : forall s t th rest,
  nth_error (ths s) t = Some th -> parked th = false -> closed (ch s) = true ->
  prog th = OClose :: rest -> tpc th = PStart ->
  exists s' th', step s t = Some s' /\ nth_error (ths s') t = Some th' /\
                 prog th' = rest /\ out th' = out th ++ [RPanic].
Proof.
  intros s t th rest Et Epk Ec Ep Hp.
  eapply step_fin; eauto. apply section_closed_panics; auto. rewrite Hp. exact I.
Qed.
Print Assumptions close_of_closed_panics.

Example panics_nontrivial :
  let s := run [0;0;0;0;1;1]%nat (init 1 [[OClose; OSend 5; OClose]; [OTrySend 6; ORecv]]) in
  map out (ths s) = [[RClose; RPanic; RPanic]; [RPanic; RRecv false 0]].
Proof. reflexivity. Qed.

(* the non-blocking receive (select with default) on an unbuffered channel: it
   took 7 from a blocked sender (whose call returned true), then a later receive
   re-armed the hand-off flag: the try-receive is parked for ever *)
Theorem tryrecv_unbuffered_never_blocks_refuted :
  exists n progs sc, let s := run sc (init n progs) in
    (forall th, In th (ths s) -> enabled th = false) /\
    (exists th, nth_error (ths s) 1 = Some th /\ prog th = [OTryRecv] /\ parked th = true /\ slot th = 7%N) /\
    (exists th, nth_error (ths s) 0 = Some th /\ out th = [RSend true]).
Proof. eexists _, _, _. rewrite final_eq. exact final_tryrecv_blocks. Qed.
Print Assumptions tryrecv_unbuffered_never_blocks_refuted.

(* select: model C10/SelModel.v - several channels, Select / TrySelect / selectOp registration next
   to the plain operations; [x_run sc (x_init caps progs)] *)

(* every call - in particular every select - commits at most once, under every schedule,
   any number of threads and channels: the number of commit events (a value entering or
   leaving a channel: ESend / ERecv) a thread has caused never exceeds the number of its
   finished calls plus one if the current call has already committed and is on its way
   out (Broadcast, endSelect).  A select can therefore never take effect on two of its
   cases, and a committed case is logged as the same event as the plain operation. *)
Theorem select_commits_at_most_one_case : forall caps progs sc t th,
  nth_error (xths (x_run sc (x_init caps progs))) t = Some th ->
  commits t (xlog (x_run sc (x_init caps progs))) <= length (xout th) + inflight (xtpc th).
Proof. intros caps progs sc. apply (cinv_run sc _ (cinv_init caps progs)). Qed.
Print Assumptions select_commits_at_most_one_case.

Example select_nontrivial :
  let s := x_run [0;0;1;1;0;0;0;0;1;1;1]%nat
             (x_init [0;1]%nat [[XSelect [CRecv 0; CSend 1 7]]; [XPlain 1 ORecv; XTrySelect [CRecv 1; CSend 0 9]]]) in
  map xout (xths s) = [[]; [XR (RRecv true 7)]] /\
  map snd (xlog s) = [ESend 7%N; ERecv 7%N] /\
  map xtpc (xths s) = [SEnd 1 (XSel 1 false 0); TTry 1].
Proof. vm_compute. auto. Qed.

(* "default only when no case was ready" is FALSE of TrySelect: the cases are probed one
   after the other in separate critical sections.  Capacity 1: at every instant the
   channel is not full (the send case is ready) or not empty (the receive case is ready),
   yet the select with default reports that nothing was ready. *)
Theorem select_default_only_if_none_ready_refuted :
  exists caps progs sc, let s := x_run sc (x_init caps progs) in
    progs = [[XTrySelect [CRecv 0; CSend 0 12%N]]; [XPlain 0 (OSend 13%N)]] /\ caps = [1]%nat /\
    map xout (xths s) = [[XDefault]; [XR (RSend true)]] /\
    map xchan_obs (xchs s) = [(0, 1, 0, 0, false, 0)]%nat.
Proof. eexists _, _, _. rewrite xfinal_eq. exact (conj eq_refl (conj eq_refl w_default)). Qed.
Print Assumptions select_default_only_if_none_ready_refuted.

(* no stuck pair is FALSE with select on unbuffered channels.  (1) two selects that
   each offer a send and a receive on the same channel: both sleep on their private
   condition variable for ever (a select does not accept select-senders on a channel it
   also sends on, and nobody arms the hand-off flag) *)
Theorem select_no_stuck_pair_refuted :
  exists caps progs sc, let s := x_run sc (x_init caps progs) in
    progs = [[XSelect [CRecv 0; CSend 0 11%N]]; [XSelect [CSend 0 12%N; CRecv 0]]] /\
    (forall th, In th (xths s) -> x_enabled th = false) /\
    map xtpc (xths s) = [SWaitW; SWaitW] /\ map xout (xths s) = [[]; []].
Proof. eexists _, _, _. rewrite xfinal_eq. exact (conj eq_refl w_mirrored). Qed.
Print Assumptions select_no_stuck_pair_refuted.

(* (2) a blocking select armed the hand-off flag of channel 1 for a counted select-sender
   that then served somebody else: it waits inside chanTryRecv for ever and cannot take
   the value thread 2 wants to send on channel 0 *)
Theorem select_partner_both_blocked_refuted :
  exists caps progs sc, let s := x_run sc (x_init caps progs) in
    (forall th, In th (xths s) -> x_enabled th = false) /\
    (exists th, nth_error (xths s) 0 = Some th /\ xprog th = [XSelect [CRecv 0; CRecv 1]] /\ xtpc th = STry2W 1) /\
    (exists th, nth_error (xths s) 2 = Some th /\ xprog th = [XPlain 0 (OSend 12%N)] /\ xtpc th = XSendW).
Proof. eexists _, _, _. rewrite xfinal_eq. exact w_stuck_pair. Qed.
Print Assumptions select_partner_both_blocked_refuted.

(* a select with default can block for ever: it armed the hand-off flag for a registered
   select-sender, which then gave its value to another receiver *)
Theorem tryselect_never_blocks_refuted :
  exists caps progs sc, let s := x_run sc (x_init caps progs) in
    (forall th, In th (xths s) -> x_enabled th = false) /\
    exists th, nth_error (xths s) 1 = Some th /\ xprog th = [XTrySelect [CRecv 0; CSend 0 14%N]] /\
               xtpc th = TTry2W 0 /\ xpark th = Some (OnChan 0) /\ xslots th = [0%N; 0%N].
Proof. eexists _, _, _. rewrite xfinal_eq. exact w_tryselect_blocks. Qed.
Print Assumptions tryselect_never_blocks_refuted.

(* (3) a sending select and a receiving select on one unbuffered channel, where the receiver
   also has a send case on a channel with a lower address: it probes its sends first and
   then calls chanTryRecv with acceptSelectSend = false; nobody arms the hand-off *)
Theorem select_sendfirst_receiver_stuck_refuted :
  exists caps progs sc, let s := x_run sc (x_init caps progs) in
    progs = [[XSelect [CRecv 1; CSend 0 12%N]]; [XSelect [CSend 1 15%N; CSend 1 16%N]]] /\ caps = [0;0]%nat /\
    (forall th, In th (xths s) -> x_enabled th = false) /\
    map xtpc (xths s) = [SWaitW; SWaitW] /\ map xout (xths s) = [[]; []].
Proof. eexists _, _, _. rewrite xfinal_eq. exact (conj eq_refl (conj eq_refl w_sendfirst)). Qed.
Print Assumptions select_sendfirst_receiver_stuck_refuted.
