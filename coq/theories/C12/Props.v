(* C12 - property theorems only.  [exec g roots] is the trace of body events
   produced by running the compiled init functions (guard test, guard store,
   calls of the imports' init in order, body) of the root packages one after the
   other on a topologically numbered import graph g ([wf g = true]: every import
   refers to an earlier package, which is what acyclicity gives). *)
From LLGoV Require Import C12.Model C12.Proofs.

(* the trace is the depth-first post-order of the import graph in import order,
   first occurrences only *)
Theorem init_is_postorder : forall g roots,
  wf g = true -> Forall (fun r => r < length g) roots ->
  exec g roots = dedup (flat_map (postorder g) roots).
Proof. intros g roots W HR. now apply exec_is_postorder. Qed.
Print Assumptions init_is_postorder.

(* every package reachable from a root (through imports whose init call is
   emitted) runs its body exactly once; nothing else runs *)
Theorem init_exactly_once : forall g roots r p,
  wf g = true -> Forall (fun r => r < length g) roots ->
  In r roots -> reach g r p ->
  count_occ event_eq_dec (exec g roots) (EMain p) = 1.
Proof.
  intros g roots r p W HR Hr R. now apply (exec_once g W roots HR (EMain p) r).
Qed.
Print Assumptions init_exactly_once.

Theorem init_only_reachable : forall g roots p,
  wf g = true -> Forall (fun r => r < length g) roots ->
  In (EMain p) (exec g roots) -> exists r, In r roots /\ reach g r p.
Proof.
  intros g roots p W HR H. apply (exec_reach g W roots HR) in H as [r [Hr [R _]]]. now exists r.
Qed.
Print Assumptions init_only_reachable.

(* for every import edge p -> q of a reachable package p, the body of q is
   complete before the body of p starts (bodies are atomic events of the trace;
   [expand] replaces each by its lines in order) *)
Theorem init_deps_first : forall g roots r p pk q,
  wf g = true -> Forall (fun r => r < length g) roots ->
  In r roots -> reach g r p -> nth_error g p = Some pk -> In q (eff g (pk_imps pk)) ->
  exists l1 l2 l3, exec g roots = l1 ++ EMain q :: l2 ++ EMain p :: l3.
Proof.
  intros g roots r p pk q W HR Hr R E Hq.
  apply (exec_before g W roots HR (EMain q) (EMain p) r); [assumption..|]. now apply (dep_import g p pk).
Qed.
Print Assumptions init_deps_first.

(* a package overlaid by llgo whose original init is chained (init$hasPatch):
   original body and replacement body run once each, the original first, each
   after the packages its own source imports *)
Theorem patched_chain_once_each : forall g roots r p pk oi,
  wf g = true -> Forall (fun r => r < length g) roots ->
  In r roots -> reach g r p -> nth_error g p = Some pk -> pk_kind pk = KPatched oi ->
  count_occ event_eq_dec (exec g roots) (EOrig p) = 1 /\
  count_occ event_eq_dec (exec g roots) (EMain p) = 1 /\
  before (EOrig p) (EMain p) (exec g roots) /\
  (forall q, In q (eff g oi) -> before (EMain q) (EOrig p) (exec g roots)) /\
  (forall q, In q (eff g (pk_imps pk)) -> before (EMain q) (EMain p) (exec g roots)).
Proof.
  intros g roots r p pk oi W HR Hr R E K.
  assert (V : valid_ev g (EOrig p)) by (cbn; unfold patched; now rewrite E, K).
  split; [now apply (exec_once g W roots HR (EOrig p) r)|].
  split; [now apply (exec_once g W roots HR (EMain p) r)|].
  split; [apply (exec_before g W roots HR _ (EMain p) r); [assumption..|]; now apply (dep_orig g p pk oi)|].
  split; intros q Hq; (apply (exec_before g W roots HR _ _ r); [assumption..|]).
  - now apply (dep_orig_import g p pk oi).
  - now apply (dep_import g p pk).
Qed.
Print Assumptions patched_chain_once_each.

(* with llgo:skipall / skipped init (pkgFNoOldInit), and for ordinary packages,
   no original body ever runs *)
Theorem patched_noold_original_never_runs : forall g roots p pk,
  wf g = true -> Forall (fun r => r < length g) roots ->
  nth_error g p = Some pk -> (pk_kind pk = KNormal \/ pk_kind pk = KPatchedNoOld) ->
  ~ In (EOrig p) (exec g roots).
Proof.
  intros g roots p pk W HR E K H. apply (exec_reach g W roots HR) in H as [_ [_ [_ V]]].
  cbn in V. unfold patched in V. rewrite E in V. destruct K as [K|K]; rewrite K in V; exact V.
Qed.
Print Assumptions patched_noold_original_never_runs.

(* the entry function: interpreter/runtime/type-table initialisers, then every
   package body (std runtime's tree first when it is linked, then main's), then
   main.main - for every graph, also ill-formed ones *)
Theorem entry_order : forall g std_rt py rt abi main,
  run_entry g std_rt py rt abi main =
  entry_prefix py rt abi ++ map VPkg (exec g (roots_of std_rt main)) ++ [VTop TMain].
Proof.
  intros g std_rt py rt abi main. unfold run_entry, entry_code, entry_prefix.
  destruct py, rt, abi; cbn [app]; rewrite ?fold_cons_top by tauto; rewrite entry_tail; reflexivity.
Qed.
Print Assumptions entry_order.

(* the std runtime package is a root of its own (importers drop the call of its
   init; the entry function calls it before main.init): its whole tree has run
   before any other package body - what package-level initialisers and init
   functions rely on when they read state of package runtime *)
Theorem entry_runtime_first : forall g r roots,
  wf g = true -> r < length g -> Forall (fun r => r < length g) roots ->
  exists t, exec g (r :: roots) = exec g [r] ++ t /\ In (EMain r) (exec g [r]).
Proof.
  intros g r roots W Hr HR.
  rewrite !exec_is_postorder by (assumption || now repeat constructor).
  unfold dedup. cbn [flat_map]. rewrite app_nil_r, add_new_app.
  destruct (add_new_prefix (add_new [] (postorder g r)) (flat_map (postorder g) roots)) as [t Ht].
  exists t. split; [exact Ht|]. apply add_new_In. right. now apply In_postorder_self.
Qed.
Print Assumptions entry_runtime_first.

(* order of variables inside a package (Go spec rule, upstream go/types in the
   implementation): a variable is initialised only after the variables its
   initialiser depends on.  Partial: completeness (every variable of an acyclic
   dependency relation is eventually initialised) is not proved; it is observed
   end to end. *)
Theorem var_order_respects_deps_partial : forall fuel done pending l1 v l2,
  var_order fuel done pending = l1 ++ v :: l2 ->
  exists ds, In (v, ds) pending /\ forall d, In d ds -> In d done \/ In d l1.
Proof. exact var_order_deps. Qed.
Print Assumptions var_order_respects_deps_partial.

(* the hypotheses are satisfiable by a non-trivial program: a diamond with a
   chained overlay package, a skipped (noinit) package and a replaced one *)
Definition ex_g : prog :=
  [ {| pk_imps := []; pk_kind := KNormal; pk_skip := false |};          (* 0 leaf *)
    {| pk_imps := []; pk_kind := KNormal; pk_skip := true |};           (* 1 unsafe-like: call dropped *)
    {| pk_imps := [0]; pk_kind := KPatched [1; 0]; pk_skip := false |}; (* 2 chained overlay *)
    {| pk_imps := [2; 0]; pk_kind := KPatchedNoOld; pk_skip := false |};(* 3 replaced *)
    {| pk_imps := [1; 3; 2]; pk_kind := KNormal; pk_skip := false |};   (* 4 *)
    {| pk_imps := [4; 0; 3]; pk_kind := KNormal; pk_skip := false |} ]. (* 5 main *)

Example ex_wf : wf ex_g = true /\ Forall (fun r => r < length ex_g) [5].
Proof. split; [reflexivity|]. repeat constructor. Qed.

Example ex_trace : exec ex_g [5] = [EMain 0; EOrig 2; EMain 2; EMain 3; EMain 4; EMain 5].
Proof. reflexivity. Qed.

Example ex_reach : reach ex_g 5 2.
Proof.
  apply reach_step with (q := 4); [cbn; tauto|].
  apply reach_step with (q := 2); [cbn; tauto|]. apply reach_refl. cbn. repeat constructor.
Qed.

Example ex_entry : run_entry ex_g None false true false 5 =
  [VTop TRtInit; VPkg (EMain 0); VPkg (EOrig 2); VPkg (EMain 2); VPkg (EMain 3); VPkg (EMain 4); VPkg (EMain 5); VTop TMain].
Proof. reflexivity. Qed.
