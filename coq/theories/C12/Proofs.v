(* C12 - lemmas.  Main result: on a topologically numbered (acyclic) import graph
   the guarded init functions produce exactly the de-duplicated post-order of the
   graph (exec_is_postorder).  Order of the file: lists (add_new, prec) and the
   vocabulary of the statements (before, roots_of, entry_prefix); for one
   graph, the unfolding of postorder and induction over the graph (pkg_ind), the
   init functions as segments of execution (run_init_ok), what follows for whole
   runs (exec_reach, exec_ordered), the entry function; last the order of variables in a package. *)
From LLGoV Require Import C12.Model.
From Coq Require Import Arith Lia.

Lemma event_eqb_eq a b : event_eqb a b = true <-> a = b.
Proof.
  destruct a, b; cbn; rewrite ?Nat.eqb_eq; split; intros H; try discriminate; try congruence.
Qed.

Lemma memE_In x l : memE x l = true <-> In x l.
Proof. apply existsb_eqb_In, event_eqb_eq. Qed.

Lemma memE_false x l : memE x l = false <-> ~ In x l.
Proof. rewrite <- memE_In. destruct (memE x l); split; congruence. Qed.

Lemma memN_In x l : memN x l = true <-> In x l.
Proof. apply existsb_eqb_In, Nat.eqb_eq. Qed.

Lemma memN_cons x p l : memN x (p :: l) = Nat.eqb x p || memN x l.
Proof. reflexivity. Qed.

Definition event_eq_dec (a b : event) : {a = b} + {a <> b}.
Proof. decide equality; apply Nat.eq_dec. Defined.

Lemma add_new_app acc l1 l2 : add_new acc (l1 ++ l2) = add_new (add_new acc l1) l2.
Proof.
  revert acc. induction l1 as [|x l1 IH]; intros acc; cbn; [reflexivity|].
  destruct (memE x acc); apply IH.
Qed.

Lemma add_new_incl acc l : incl l acc -> add_new acc l = acc.
Proof.
  induction l as [|x l IH]; intros H; cbn; [reflexivity|].
  apply incl_cons_inv in H as [Hx H]. apply memE_In in Hx. rewrite Hx. now apply IH.
Qed.

Lemma add_new_In acc l x : In x (add_new acc l) <-> In x acc \/ In x l.
Proof.
  revert acc. induction l as [|y l IH]; intros acc; cbn.
  - tauto.
  - destruct (memE y acc) eqn:E.
    + rewrite IH. apply memE_In in E. split; [tauto|]. intros [H|[H|H]]; subst; tauto.
    + rewrite IH, in_app_iff. cbn. tauto.
Qed.

Lemma add_new_single acc x : ~ In x acc -> add_new acc [x] = acc ++ [x].
Proof. intros H. cbn. apply memE_false in H. now rewrite H. Qed.

Lemma add_new_prefix acc l : exists t, add_new acc l = acc ++ t.
Proof.
  revert acc. induction l as [|y l IH]; intros acc; cbn.
  - exists []. now rewrite app_nil_r.
  - destruct (memE y acc); [apply IH|].
    destruct (IH (acc ++ [y])) as [t Ht]. exists (y :: t). rewrite Ht, <- app_assoc. reflexivity.
Qed.

Lemma add_new_NoDup acc l : NoDup acc -> NoDup (add_new acc l).
Proof.
  revert acc. induction l as [|y l IH]; intros acc H; cbn; [assumption|].
  destruct (memE y acc) eqn:E; [now apply IH|].
  apply IH, (NoDup_Add (Add_app y acc [])). rewrite app_nil_r. now apply memE_false in E.
Qed.

Lemma wf_from_nth k g i pk : wf_from k g = true -> nth_error g i = Some pk -> wf_pkg (k + i) pk = true.
Proof.
  revert k i. induction g as [|a g IH]; intros k i W E; [destruct i; discriminate|].
  cbn in W. apply andb_true_iff in W as [W1 W2]. destruct i; cbn in E.
  - inversion E; subst. now rewrite Nat.add_0_r.
  - replace (k + S i) with (S k + i) by lia. now apply IH.
Qed.

(* every occurrence of b is preceded by an occurrence of a *)
Definition prec (a b : event) (l : list event) : Prop :=
  forall l1 l2, l = l1 ++ b :: l2 -> In a l1.

Lemma app_split {A} (l m l1 l2 : list A) b : l ++ m = l1 ++ b :: l2 ->
  (exists k, l = l1 ++ b :: k /\ l2 = k ++ m) \/ (exists k, l1 = l ++ k /\ m = k ++ b :: l2).
Proof.
  revert l1. induction l as [|x l IH]; intros l1 H; cbn in H.
  - right. exists l1. auto.
  - destruct l1 as [|y l1]; cbn in H; inversion H; subst.
    + left. exists l. auto.
    + destruct (IH l1 H2) as [[k [H3 H4]]|[k [H3 H4]]].
      * left. exists k. subst. auto.
      * right. exists k. subst. auto.
Qed.

Lemma prec_notin a b l : ~ In b l -> prec a b l.
Proof. intros N l1 l2 ->. destruct N. apply in_elt. Qed.

Lemma prec_app a b l m : prec a b l -> In a l \/ prec a b m -> prec a b (l ++ m).
Proof.
  intros Pl Pm l1 l2 H. apply app_split in H as [[k [H1 H2]]|[k [H1 H2]]].
  - eapply Pl; eauto.
  - subst l1. apply in_app_iff. destruct Pm as [Pm|Pm]; [now left|]. right. eapply Pm; eauto.
Qed.

Lemma prec_flat_map {A} a b (f : A -> list event) l :
  (forall x, In x l -> prec a b (f x)) -> prec a b (flat_map f l).
Proof.
  induction l as [|x l IH]; intros H; cbn; [now apply prec_notin|].
  apply prec_app; [apply H; now left|]. right. apply IH. intros y Hy. apply H. now right.
Qed.

Lemma prec_hit a b l : In a l -> ~ In b l -> prec a b (l ++ [b]).
Proof. intros Ha N. apply prec_app; [now apply prec_notin|now left]. Qed.

(* dropping an element that has occurred before *)
Lemma prec_drop_seen a b x acc l : In x acc -> prec a b (acc ++ x :: l) -> prec a b (acc ++ l).
Proof.
  intros Hx P l1 l2 H. apply app_split in H as [[k [-> ->]]|[k [-> ->]]].
  - apply (P l1 (k ++ x :: l)). now rewrite <- app_assoc.
  - specialize (P (acc ++ x :: k) l2). rewrite <- app_assoc in P. specialize (P eq_refl).
    rewrite in_app_iff in *. destruct P as [P|[<-|P]]; auto.
Qed.

(* add_new only drops repetitions *)
Lemma prec_add_new a b : forall l acc, prec a b (acc ++ l) -> prec a b (add_new acc l).
Proof.
  induction l as [|x l IH]; intros acc P; cbn; [now rewrite app_nil_r in P|].
  destruct (memE x acc) eqn:E; apply IH.
  - apply memE_In in E. now apply (prec_drop_seen a b x).
  - now rewrite <- app_assoc.
Qed.

Definition before (a b : event) (l : list event) : Prop :=
  exists l1 l2 l3, l = l1 ++ a :: l2 ++ b :: l3.

Lemma prec_before a b l : prec a b l -> In b l -> before a b l.
Proof.
  intros P H. apply in_split in H as [l1 [l3 H]]. pose proof (P l1 l3 H) as Ha.
  apply in_split in Ha as [k1 [k2 Ha]]. exists k1, k2, l3. subst. now rewrite <- app_assoc.
Qed.

Definition roots_of (std_rt : option pkgid) (main : pkgid) : list pkgid :=
  match std_rt with Some r => [r; main] | None => [main] end.

Definition entry_prefix (py rt abi : bool) : list tev :=
  (if py then [VTop TPyInit] else []) ++ (if rt then [VTop TRtInit] else []) ++ (if abi then [VTop TAbiInit] else []).

Definition mark (p : pkgid) (s : state) : state := {| guards := p :: guards s; trace := trace s |}.
Definition emit (e : event) (s : state) : state := {| guards := guards s; trace := trace s ++ [e] |}.

Lemma wf_pkg_lt p pk : wf_pkg p pk = true ->
  (forall q, In q (pk_imps pk) -> q < p) /\
  (forall oi, pk_kind pk = KPatched oi -> forall q, In q oi -> q < p).
Proof.
  unfold wf_pkg. intros H. apply andb_true_iff in H as [H1 H2]. rewrite forallb_forall in H1.
  split; [|intros oi K; rewrite K, forallb_forall in H2]; intros q Hq; apply Nat.ltb_lt; auto.
Qed.

(* From here on one import graph g; W is used by the lemmas about post-orders
   and about the init functions, not by those about the entry function. *)
Section Graph.
Variable g : prog.
Hypothesis W : wf g = true.

Lemma wf_nth p pk : nth_error g p = Some pk -> wf_pkg p pk = true.
Proof. exact (wf_from_nth 0 g p pk W). Qed.

Lemma eff_In l q : In q (eff g l) -> In q l.
Proof. unfold eff. rewrite filter_In. tauto. Qed.

Lemma eff_lt q l : In q (eff g l) -> q < length g.
Proof.
  unfold eff. rewrite filter_In. intros [_ H]. unfold skipped in H.
  destruct (nth_error g q) eqn:E; [|discriminate]. apply nth_error_Some. congruence.
Qed.

Lemma wf_imps p pk : nth_error g p = Some pk -> forall q, In q (eff g (pk_imps pk)) -> q < p.
Proof. intros E q H. apply (wf_pkg_lt p pk (wf_nth p pk E)), eff_In, H. Qed.

Lemma wf_orig p pk oi : nth_error g p = Some pk -> pk_kind pk = KPatched oi ->
  forall q, In q (eff g oi) -> q < p.
Proof. intros E K q H. apply (proj2 (wf_pkg_lt p pk (wf_nth p pk E)) oi K), eff_In, H. Qed.

Lemma children_In p pk q : nth_error g p = Some pk ->
  (In q (children g p) <->
   In q (eff g (pk_imps pk)) \/ exists oi, pk_kind pk = KPatched oi /\ In q (eff g oi)).
Proof.
  intros E. unfold children. rewrite E. destruct (pk_kind pk) eqn:K; rewrite ?in_app_iff.
  - split; [tauto|]. intros [H|[oi [H _]]]; [assumption|discriminate].
  - split.
    + intros [H|H]; [right; eauto|now left].
    + intros [H|[oi [H1 H2]]]; [now right|]. inversion H1; subst. now left.
  - split; [tauto|]. intros [H|[oi [H _]]]; [assumption|discriminate].
Qed.

Lemma children_lt p q : In q (children g p) -> q < p.
Proof.
  intros H. destruct (nth_error g p) as [pk|] eqn:E; [|unfold children in H; rewrite E in H; destruct H].
  destruct (proj1 (children_In p pk q E) H) as [Hq|[oi [K Hq]]]; [eapply wf_imps|eapply wf_orig]; eauto.
Qed.

(* the post-order at package p, one level unfolded: what the renamed original
   contributes (patched packages only), then the imports of the compiled source,
   then p's own body *)
Definition orig_part (p : pkgid) (pk : pkg) : list event :=
  match pk_kind pk with
  | KPatched oi => flat_map (postorder g) (eff g oi) ++ [EOrig p]
  | _ => []
  end.

Definition node (p : pkgid) (pk : pkg) : list event :=
  orig_part p pk ++ flat_map (postorder g) (eff g (pk_imps pk)) ++ [EMain p].

(* any fuel above p gives the same unfolding: below p both the given fuel and
   the fuel of [postorder] are enough by induction *)
Lemma po_unfold : forall p n, p < n ->
  po g n p = match nth_error g p with Some pk => node p pk | None => [] end.
Proof.
  intros p. induction p as [p IH] using lt_wf_ind. intros [|n] Hn; [lia|]. cbn [po].
  destruct (nth_error g p) as [pk|] eqn:E; [|reflexivity].
  assert (HI : forall l, (forall q, In q (eff g l) -> q < p) ->
            flat_map (po g n) (eff g l) = flat_map (postorder g) (eff g l)).
  { intros l Hl. rewrite !flat_map_concat_map. f_equal. apply map_ext_in. intros q Hq. apply Hl in Hq.
    unfold postorder. rewrite (IH q Hq n), (IH q Hq (S q)) by lia. reflexivity. }
  unfold node, orig_part. rewrite (HI (pk_imps pk) (wf_imps p pk E)).
  destruct (pk_kind pk) eqn:K; [reflexivity| |reflexivity].
  rewrite (HI orig_imps (wf_orig p pk _ E K)), <- app_assoc. reflexivity.
Qed.

Lemma postorder_unfold p pk : nth_error g p = Some pk -> postorder g p = node p pk.
Proof. intros E. unfold postorder. rewrite po_unfold, E by lia. reflexivity. Qed.

Lemma postorder_none p : nth_error g p = None -> postorder g p = [].
Proof. intros E. unfold postorder. cbn. now rewrite E. Qed.

Lemma pkg_ind (P : pkgid -> Prop) :
  (forall p, nth_error g p = None -> postorder g p = [] -> P p) ->
  (forall p pk, nth_error g p = Some pk -> postorder g p = node p pk ->
     (forall q, q < p -> P q) -> P p) ->
  forall p, P p.
Proof.
  intros H0 H1 p. induction p as [p IH] using lt_wf_ind.
  destruct (nth_error g p) as [pk|] eqn:E; [apply (H1 p pk)|apply H0]; auto using postorder_unfold, postorder_none.
Qed.

Definition patched (p : pkgid) : Prop :=
  match nth_error g p with
  | Some pk => match pk_kind pk with KPatched _ => True | _ => False end
  | None => False
  end.

Definition valid_ev (e : event) : Prop :=
  match e with EMain _ => True | EOrig p => patched p end.

Lemma node_In p pk e : nth_error g p = Some pk ->
  (In e (node p pk) <->
   e = EMain p \/ (e = EOrig p /\ patched p) \/ exists q, In q (children g p) /\ In e (postorder g q)).
Proof.
  intros E. rewrite <- in_flat_map. unfold node, orig_part, patched, children. rewrite E.
  assert (S : forall x : event, In e [x] <-> e = x).
  { intros x. split; [intros [H|[]]; now symmetry|intros ->; now left]. }
  (* both sides list the same alternatives: the own events and the two lists of children *)
  destruct (pk_kind pk); rewrite ?flat_map_app, !in_app_iff, !S.
  - cbn [In]. tauto.
  - tauto.
  - cbn [In]. tauto.
Qed.

Lemma postorder_bound : forall p e, In e (postorder g p) -> ev_pkg e <= p.
Proof.
  intros p. induction p as [p _ U|p pk E U IH] using pkg_ind; intros e H; rewrite U in H; [destruct H|].
  apply (node_In p pk e E) in H as [->|[[-> _]|[q [Hq He]]]]; [cbn; lia..|].
  apply children_lt in Hq. specialize (IH q Hq e He). lia.
Qed.

Lemma In_postorder_self p : p < length g -> In (EMain p) (postorder g p).
Proof.
  intros H. destruct (nth_error g p) as [pk|] eqn:E; [|apply nth_error_None in E; lia].
  rewrite (postorder_unfold p pk E), (node_In p pk _ E). now left.
Qed.

Lemma reach_lt p r : reach g p r -> r < length g.
Proof. induction 1; assumption. Qed.

Lemma reach_src_lt p r : reach g p r -> p < length g.
Proof.
  destruct 1 as [|p q r H _]; [assumption|]. unfold children in H.
  destruct (nth_error g p) eqn:E; [apply nth_error_Some; congruence|destruct H].
Qed.

Lemma postorder_reach : forall p e,
  In e (postorder g p) <-> reach g p (ev_pkg e) /\ valid_ev e.
Proof.
  intros p. induction p as [p E U|p pk E U IH] using pkg_ind; intros e; rewrite U.
  { split; [intros []|]. intros [R _]. apply reach_src_lt, nth_error_Some in R. congruence. }
  assert (Hp : p < length g) by (apply nth_error_Some; congruence).
  rewrite (node_In p pk e E). split.
  - intros [->|[[-> V]|[q [Hq He]]]]; [split; [now apply reach_refl|assumption || exact I]..|].
    apply IH in He as [R V]; [|now apply children_lt].
    split; [eapply reach_step; eauto|exact V].
  - intros [R V]. remember (ev_pkg e) as r eqn:Er. destruct R as [p _|p q r Hq R].
    + destruct e as [x|x]; cbn in Er; subst x; [now left|right; left; now split].
    + right. right. exists q. split; [assumption|]. apply IH; [now apply children_lt|].
      subst r. now split.
Qed.

(* an event of a package from p upwards is in no post-order of a package below p *)
Lemma above_not_in_postorders p l e :
  (forall q, In q l -> q < p) -> p <= ev_pkg e -> ~ In e (flat_map (postorder g) l).
Proof.
  intros Hl He H. apply in_flat_map in H as [q [Hq Hin]].
  apply Hl in Hq. pose proof (postorder_bound q e Hin). lia.
Qed.

(* EMain p occurs in [node p pk] at its end only *)
Lemma main_only_last p pk : nth_error g p = Some pk ->
  ~ In (EMain p) (orig_part p pk ++ flat_map (postorder g) (eff g (pk_imps pk))).
Proof.
  intros E H. apply in_app_iff in H as [H|H]; revert H.
  - unfold orig_part. destruct (pk_kind pk) eqn:K; [intros []| |intros []]. intros H.
    apply in_app_iff in H as [H|[H|[]]]; [|discriminate].
    revert H. apply (above_not_in_postorders p); [exact (wf_orig p pk _ E K)|cbn; lia].
  - apply (above_not_in_postorders p); [exact (wf_imps p pk E)|cbn; lia].
Qed.

Definition inits (n : nat) (l : list pkgid) (s : state) : state :=
  fold_left (fun s q => run g n (FInit q) s) l s.

Lemma run_none fuel p s : nth_error g p = None -> run g fuel (FInit p) s = s.
Proof. intros E. destruct fuel; [reflexivity|]. cbn [run compile]. now rewrite E. Qed.

Lemma run_init_hit fuel p s : memN p (guards s) = true -> run g fuel (FInit p) s = s.
Proof.
  intros G. destruct fuel; [reflexivity|]. cbn [run compile].
  destruct (nth_error g p) as [pk|]; [|reflexivity].
  destruct (pk_kind pk); cbn [sk_ret_when pkg_of]; rewrite G; reflexivity.
Qed.

Lemma calls_inits n l s : fold_left (fun s c => run g n c s) (map FInit l) s = inits n l s.
Proof. revert s. induction l as [|q l IH]; intros s; [reflexivity|apply IH]. Qed.

Lemma run_init n p pk s : nth_error g p = Some pk -> memN p (guards s) = false ->
  run g (S n) (FInit p) s =
  emit (EMain p) (inits n (eff g (pk_imps pk))
    match pk_kind pk with KPatched _ => run g n (FOld p) (mark p s) | _ => mark p s end).
Proof.
  intros E G. cbn [run compile]. rewrite E.
  destruct (pk_kind pk); cbn [sk_ret_when sk_calls sk_body pkg_of fold_left]; rewrite G, calls_inits; reflexivity.
Qed.

Lemma run_old n p pk oi s : nth_error g p = Some pk -> pk_kind pk = KPatched oi ->
  memN p (guards s) = true ->
  run g (S n) (FOld p) s = emit (EOrig p) (inits n (eff g oi) (mark p s)).
Proof.
  intros E K G. cbn [run compile]. rewrite E, K. cbn [sk_ret_when sk_calls sk_body pkg_of].
  rewrite G, calls_inits. reflexivity.
Qed.

Lemma exec_inits roots : exec g roots = trace (inits (fuel_of g) roots st0).
Proof. reflexivity. Qed.

(* below b no init function is in progress: a set guard means that the whole
   post-order of the package is in the trace, and a body only runs under a set
   guard *)
Definition inv (b : nat) (s : state) : Prop :=
  (forall x, x < b -> memN x (guards s) = true -> incl (postorder g x) (trace s)) /\
  (forall e, In e (trace s) -> ev_pkg e < b -> memN (ev_pkg e) (guards s) = true).

Lemma inv_st0 b : inv b st0.
Proof. split; [discriminate|intros e []]. Qed.

Lemma inv_weaken b b' s : b' <= b -> inv b s -> inv b' s.
Proof. intros H [C G]. split; [intros x Hx|intros e He Hx]; [apply C|apply G]; auto; lia. Qed.

Lemma inv_mark b s p : b <= p -> inv b s -> inv b (mark p s).
Proof.
  intros Hp [C G]. split; cbn [mark guards trace].
  - intros x Hx. rewrite memN_cons, (proj2 (Nat.eqb_neq x p)) by lia. now apply C.
  - intros e He Hx. rewrite memN_cons, G by assumption. apply orb_true_r.
Qed.

(* a segment of execution from s to s': the trace gains the new events of L, the
   invariant holds below b afterwards, the guards from b upwards are as before *)
Definition segment (b : nat) (L : list event) (s s' : state) : Prop :=
  trace s' = add_new (trace s) L /\ inv b s' /\
  forall x, b <= x -> memN x (guards s') = memN x (guards s).

Lemma seg_refl b s : inv b s -> segment b [] s s.
Proof. intros I. split; [reflexivity|]. split; [assumption|reflexivity]. Qed.

Lemma seg_trans b L1 L2 s s1 s2 :
  segment b L1 s s1 -> segment b L2 s1 s2 -> segment b (L1 ++ L2) s s2.
Proof.
  intros [T1 [_ F1]] [T2 [I2 F2]]. split; [|split; [assumption|]].
  - now rewrite add_new_app, <- T1.
  - intros x Hx. now rewrite F2, F1.
Qed.

Lemma seg_emit b s e : b <= ev_pkg e -> inv b s -> ~ In e (trace s) -> segment b [e] s (emit e s).
Proof.
  intros He [C G] N. split; [symmetry; now apply add_new_single|]. split; [split|reflexivity]; cbn [emit guards trace].
  - intros x Hx M. apply incl_appl. now apply C.
  - intros e' H Hx. apply in_app_iff in H as [H|[->|[]]]; [now apply G|lia].
Qed.

Lemma seg_mark p s : inv p s -> memN p (guards s) = true -> segment p [] s (mark p s).
Proof.
  intros I G. split; [reflexivity|]. split; [now apply inv_mark|].
  intros x Hx. cbn [mark guards]. rewrite memN_cons.
  destruct (Nat.eqb_spec x p) as [->|_]; [now rewrite G|reflexivity].
Qed.

(* What a call of FInit q has to achieve, under any bound b above q.  Fuel: FInit q
   needs more than 2q+1 (it calls FOld q with one less, which needs more than 2q);
   either leaves at least 2q to its calls for packages below q. *)
Definition init_ok (q : pkgid) : Prop :=
  forall fuel s b, 2 * q + 1 < fuel -> q < b -> inv b s ->
    segment b (postorder g q) s (run g fuel (FInit q) s).

Lemma inits_ok p : (forall q, q < p -> init_ok q) ->
  forall l n s, (forall q, In q l -> q < p) -> 2 * p <= n -> inv p s ->
    segment p (flat_map (postorder g) l) s (inits n l s).
Proof.
  intros IH l. induction l as [|q l IHl]; intros n s Hl Hn I; [now apply seg_refl|].
  assert (Hq : q < p) by (apply Hl; now left).
  assert (S1 : segment p (postorder g q) s (run g n (FInit q) s)) by (apply (IH q Hq); [lia|assumption..]).
  apply (seg_trans p _ _ s (run g n (FInit q) s)); [exact S1|]. destruct S1 as [_ [I' _]].
  apply IHl; [intros r Hr; apply Hl; now right|assumption..].
Qed.

Lemma phase_ok p : (forall q, q < p -> init_ok q) ->
  forall l e n s, (forall q, In q l -> q < p) -> 2 * p <= n -> inv p s ->
    ev_pkg e = p -> ~ In e (trace s) ->
    segment p (flat_map (postorder g) l ++ [e]) s (emit e (inits n l s)).
Proof.
  intros IH l e n s Hl Hn I He N.
  pose proof (inits_ok p IH l n s Hl Hn I) as S1.
  apply (seg_trans p _ _ s (inits n l s)); [exact S1|].
  destruct S1 as [T [I' _]]. apply seg_emit; [lia|assumption|].
  rewrite T, add_new_In. intros [H|H]; [auto|].
  revert H. apply (above_not_in_postorders p); [assumption|lia].
Qed.

(* the renamed original init of a patched package p, called by p's init right
   after the guard store, is a phase of its own *)
Lemma old_ok p pk oi : (forall q, q < p -> init_ok q) ->
  nth_error g p = Some pk -> pk_kind pk = KPatched oi ->
  forall n s, 2 * p < n -> inv p s -> memN p (guards s) = true -> ~ In (EOrig p) (trace s) ->
    segment p (flat_map (postorder g) (eff g oi) ++ [EOrig p]) s (run g n (FOld p) s).
Proof.
  intros IH E K n s Hn I G N. destruct n as [|n]; [lia|]. rewrite (run_old n p pk oi s E K G).
  apply (seg_trans p [] _ s (mark p s)); [now apply seg_mark|].
  apply (phase_ok p IH); [exact (wf_orig p pk oi E K)|lia|apply inv_mark; [lia|assumption]|reflexivity|assumption].
Qed.

(* p's call is complete: what was a segment below p from the guard store on is
   a segment below every bound b above p for the whole call *)
Lemma call_complete p b s s' : p < b -> inv b s ->
  segment p (postorder g p) (mark p s) s' -> segment b (postorder g p) s s'.
Proof.
  intros Hb [C G] [T [[C' G'] F]]. cbn [mark trace guards] in T, F. split; [exact T|]. split; [split|].
  - intros x Hx M. destruct (lt_eq_lt_dec x p) as [[L| ->]|L]; [now apply C'| |]; rewrite T.
    + intros e He. apply add_new_In. now right.
    + rewrite F, memN_cons, (proj2 (Nat.eqb_neq x p)) in M by lia.
      intros e He. apply add_new_In. left. now apply (C x).
  - intros e He Hx. destruct (le_lt_dec p (ev_pkg e)) as [L|L]; [|now apply G'].
    rewrite F, memN_cons by assumption. destruct (Nat.eqb_spec (ev_pkg e) p) as [_|N]; [reflexivity|].
    apply G; [|assumption]. rewrite T in He. apply add_new_In in He as [He|He]; [assumption|].
    apply postorder_bound in He. lia.
  - intros x Hx. rewrite F, memN_cons, (proj2 (Nat.eqb_neq x p)) by lia. reflexivity.
Qed.

Lemma run_init_ok : forall p, init_ok p.
Proof.
  intros p. induction p as [p E U|p pk E U IH] using pkg_ind; intros fuel s b Hf Hb I.
  { rewrite run_none, U by assumption. now apply seg_refl. }
  destruct (memN p (guards s)) eqn:G.
  { rewrite run_init_hit by assumption. split; [|split; [assumption|reflexivity]].
    symmetry. apply add_new_incl. now apply (proj1 I p). }
  destruct fuel as [|n]; [lia|]. rewrite (run_init n p pk s E G).
  apply (call_complete p b s); [assumption..|]. rewrite U.
  assert (I1 : inv p (mark p s)) by (apply inv_mark; [lia|]; apply (inv_weaken b); [lia|assumption]).
  assert (N : forall e, ev_pkg e = p -> ~ In e (trace s)).
  { intros e He Hin. apply (proj2 I) in Hin; [|lia]. congruence. }
  (* what the renamed original contributes, if there is one *)
  set (s1 := match pk_kind pk with KPatched _ => run g n (FOld p) (mark p s) | _ => mark p s end).
  assert (S1 : segment p (orig_part p pk) (mark p s) s1).
  { unfold orig_part, s1. destruct (pk_kind pk) as [|oi|] eqn:K; try now apply seg_refl.
    apply (old_ok p pk oi IH E K); [lia|assumption|cbn; now rewrite Nat.eqb_refl|now apply N]. }
  apply (seg_trans p _ _ _ s1 _ S1). destruct S1 as [T1 [I2 _]].
  apply (phase_ok p IH); [exact (wf_imps p pk E)|lia|assumption|reflexivity|].
  rewrite T1, add_new_In. intros [H|H]; [revert H; now apply N|].
  apply (main_only_last p pk E), in_app_iff. now left.
Qed.

(* it suffices to look at the unfolding of the post-order at the package of b:
   every other post-order contains b only inside copies of that one *)
Lemma prec_node a b pk : nth_error g (ev_pkg b) = Some pk ->
  prec a b (node (ev_pkg b) pk) -> forall r, prec a b (postorder g r).
Proof.
  intros Eb H r. induction r as [r _ U|r pk' E U IH] using pkg_ind; rewrite U; [now apply prec_notin|].
  destruct (Nat.eq_dec r (ev_pkg b)) as [->|N]; [now replace pk' with pk by congruence|].
  assert (Hp : forall l e, (forall q, In q (eff g l) -> q < r) -> ev_pkg e = r ->
            prec a b (flat_map (postorder g) (eff g l) ++ [e])).
  { intros l e Hl He. apply prec_app; [|right; apply prec_notin; intros [->|[]]; congruence].
    apply prec_flat_map. intros q Hq. apply IH, Hl, Hq. }
  unfold node, orig_part. apply prec_app; [|right; now apply (Hp _ _ (wf_imps r pk' E))].
  destruct (pk_kind pk') eqn:K; try now apply prec_notin. now apply (Hp _ _ (wf_orig r pk' _ E K)).
Qed.

Lemma child_in_flat q l : In q (eff g l) -> In (EMain q) (flat_map (postorder g) (eff g l)).
Proof.
  intros Hq. apply in_flat_map. exists q. split; [assumption|].
  apply In_postorder_self. eapply eff_lt, Hq.
Qed.

(* what has to be complete before a body may run: the emitted imports of the
   source it was compiled from, and for the replacement body of a chained overlay
   the original body *)
Inductive dep : event -> event -> Prop :=
| dep_import p pk q : nth_error g p = Some pk -> In q (eff g (pk_imps pk)) -> dep (EMain q) (EMain p)
| dep_orig_import p pk oi q : nth_error g p = Some pk -> pk_kind pk = KPatched oi -> In q (eff g oi) ->
    dep (EMain q) (EOrig p)
| dep_orig p pk oi : nth_error g p = Some pk -> pk_kind pk = KPatched oi -> dep (EOrig p) (EMain p).

Lemma dep_valid a b : dep a b -> valid_ev b.
Proof. destruct 1 as [| p pk oi q E K _ |]; cbn; [exact I| |exact I]. unfold patched. now rewrite E, K. Qed.

Lemma dep_prec a b : dep a b -> forall r, prec a b (postorder g r).
Proof.
  destruct 1 as [p pk q E Hq|p pk oi q E K Hq|p pk oi E K].
  - apply (prec_node _ (EMain p) pk E). unfold node. rewrite app_assoc.
    apply prec_hit; [|now apply main_only_last]. apply in_app_iff. right. now apply child_in_flat.
  - apply (prec_node _ (EOrig p) pk E). unfold node, orig_part. rewrite K.
    apply prec_app; [|left; apply in_app_iff; left; now apply child_in_flat].
    apply prec_hit; [now apply child_in_flat|].
    apply (above_not_in_postorders p); [exact (wf_orig p pk oi E K)|cbn; lia].
  - apply (prec_node _ (EMain p) pk E). unfold node. rewrite app_assoc.
    apply prec_hit; [|now apply main_only_last].
    unfold orig_part. rewrite K, !in_app_iff. left. right. now left.
Qed.

Section Roots.
Variable roots : list pkgid.
Hypothesis HR : Forall (fun r => r < length g) roots.

Lemma exec_is_postorder : exec g roots = dedup (flat_map (postorder g) roots).
Proof.
  destruct (inits_ok (length g) (fun q _ => run_init_ok q) roots (fuel_of g) st0) as [T _];
    [now apply Forall_forall|unfold fuel_of; lia|apply inv_st0|].
  rewrite exec_inits. exact T.
Qed.

Lemma exec_NoDup : NoDup (exec g roots).
Proof. rewrite exec_is_postorder. apply add_new_NoDup. constructor. Qed.

Lemma exec_reach e :
  In e (exec g roots) <-> exists r, In r roots /\ reach g r (ev_pkg e) /\ valid_ev e.
Proof.
  rewrite exec_is_postorder. unfold dedup. rewrite add_new_In, in_flat_map.
  split.
  - intros [[]|[r [Hr H]]]. exists r. split; [assumption|]. now apply postorder_reach.
  - intros [r [Hr H]]. right. exists r. split; [assumption|]. now apply postorder_reach.
Qed.

Lemma exec_once e r :
  In r roots -> reach g r (ev_pkg e) -> valid_ev e -> count_occ event_eq_dec (exec g roots) e = 1.
Proof.
  intros Hr R V. apply (proj1 (NoDup_count_occ' event_eq_dec _) exec_NoDup).
  apply exec_reach. now exists r.
Qed.

Lemma exec_ordered a b : dep a b -> prec a b (exec g roots).
Proof.
  intros D. rewrite exec_is_postorder.
  apply prec_add_new, prec_flat_map. intros r _. now apply dep_prec.
Qed.

Lemma exec_before a b r :
  In r roots -> reach g r (ev_pkg b) -> dep a b -> before a b (exec g roots).
Proof.
  intros Hr R D. apply prec_before; [now apply exec_ordered|].
  apply exec_reach. exists r. split; [assumption|]. split; [assumption|]. eapply dep_valid, D.
Qed.

End Roots.

Lemma run_trace_prefix : forall fuel f s, exists t, trace (run g fuel f s) = trace s ++ t.
Proof.
  induction fuel as [|n IH]; intros f s; cbn.
  - exists []. now rewrite app_nil_r.
  - destruct (compile g f) as [sk|]; [|exists []; now rewrite app_nil_r].
    destruct (Bool.eqb _ _); [exists []; now rewrite app_nil_r|]. cbn [trace].
    assert (HF : forall l s0, exists t, trace (fold_left (fun s c => run g n c s) l s0) = trace s0 ++ t).
    { induction l as [|c l IHl]; intros s0; cbn; [exists []; now rewrite app_nil_r|].
      destruct (IHl (run g n c s0)) as [t2 H2]. destruct (IH c s0) as [t1 H1].
      exists (t1 ++ t2). rewrite H2, H1. now rewrite app_assoc. }
    destruct (HF (sk_calls sk) {| guards := pkg_of f :: guards s; trace := trace s |}) as [t Ht].
    exists (t ++ [sk_body sk]). rewrite Ht. cbn [trace]. now rewrite app_assoc.
Qed.

(* an init call from the entry function, when the output so far ends with the
   package events of the trace so far *)
Lemma run_top_init std_rt p s out :
  run_top g std_rt (TInit p) (s, out ++ map VPkg (trace s)) =
  (run g (fuel_of g) (FInit p) s, out ++ map VPkg (trace (run g (fuel_of g) (FInit p) s))).
Proof.
  destruct (run_trace_prefix (fuel_of g) (FInit p) s) as [t Ht].
  unfold run_top. cbv zeta. rewrite Ht, skipn_app_exact, map_app, app_assoc. reflexivity.
Qed.

Lemma entry_tail std_rt main out :
  snd (fold_left (fun st t => run_top g std_rt t st) [TStdRuntime; TInit main; TMain] (st0, out)) =
  out ++ map VPkg (exec g (roots_of std_rt main)) ++ [VTop TMain].
Proof.
  unfold exec, exec_from, roots_of. rewrite <- (app_nil_r out) at 1. change (out ++ []) with (out ++ map VPkg (trace st0)).
  destruct std_rt as [r|]; cbn [fold_left].
  - change (run_top g (Some r) TStdRuntime) with (run_top g (Some r) (TInit r)).
    rewrite !run_top_init. cbn [run_top snd]. now rewrite <- app_assoc.
  - change (run_top g None TStdRuntime (st0, ?o)) with (st0, o).
    rewrite run_top_init. cbn [run_top snd]. now rewrite <- app_assoc.
Qed.

Lemma fold_cons_top std_rt t l s out : (t = TPyInit \/ t = TRtInit \/ t = TAbiInit) ->
  fold_left (fun st t => run_top g std_rt t st) (t :: l) (s, out) =
  fold_left (fun st t => run_top g std_rt t st) l (s, out ++ [VTop t]).
Proof. intros [H|[H|H]]; subst t; reflexivity. Qed.

End Graph.

Lemma pick_ready done pending v r : pick done pending = Some (v, r) ->
  exists ds, In (v, ds) pending /\ forall d, In d ds -> In d done.
Proof.
  revert v r. induction pending as [|[w ds] pending IH]; intros v r H; cbn in H; [discriminate|].
  destruct (forallb (fun d => memN d done) ds) eqn:F.
  - inversion H; subst. exists ds. split; [now left|]. intros d Hd.
    rewrite forallb_forall in F. apply memN_In, F, Hd.
  - destruct (pick done pending) as [[w' r']|] eqn:P; [|discriminate]. inversion H; subst.
    destruct (IH v r' eq_refl) as [ds' [H1 H2]]. exists ds'. split; [now right|assumption].
Qed.

Lemma pick_rest done pending v r x : pick done pending = Some (v, r) -> In x r -> In x pending.
Proof.
  revert v r. induction pending as [|[w ds] pending IH]; intros v r H Hx; cbn in H; [discriminate|].
  destruct (forallb (fun d => memN d done) ds).
  - inversion H; subst. now right.
  - destruct (pick done pending) as [[w' r']|] eqn:P; [|discriminate]. inversion H; subst.
    destruct Hx as [Hx|Hx]; [now left|right; eapply IH; eauto].
Qed.

Lemma var_order_deps : forall fuel done pending l1 v l2,
  var_order fuel done pending = l1 ++ v :: l2 ->
  exists ds, In (v, ds) pending /\ forall d, In d ds -> In d done \/ In d l1.
Proof.
  induction fuel as [|n IH]; intros done pending l1 v l2 H; cbn in H; [destruct l1; discriminate|].
  destruct (pick done pending) as [[w r]|] eqn:P; [|destruct l1; discriminate].
  destruct l1 as [|x l1]; cbn in H; inversion H; subst.
  - destruct (pick_ready _ _ _ _ P) as [ds [H1 H2]]. exists ds. split; [assumption|]. intros d Hd. left. auto.
  - destruct (IH _ _ _ _ _ H2) as [ds [H3 H4]]. exists ds. split; [eapply pick_rest; eauto|].
    intros d Hd. destruct (H4 d Hd) as [[H5|H5]|H5]; [subst; right; now left|now left|right; now right].
Qed.
