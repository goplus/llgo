(* C16 - proofs about the model of internal/goembed.  The spine: one lemma per
   level of ResolvePatterns saying what an Ok result is and why an Err is given
   (check_path_spec, match_files_spec, do_matches_spec, do_pattern_spec,
   resolve_go_spec), with the converse "refused by the rules implies Err", give
   resolve_gen_ok / resolve_gen_err; BuildFSEntries is read as a sequence of
   writes (table_writes, puts_agree); the argument round trip is split_args_render
   and unquote_fields_render; LoadDirectives rests on fold_res_err_iff. *)
From LLGoV Require Import C16.Model C16.Spec.
From Coq Require Import Sorting.Sorted Sorting.Permutation.
Local Open Scope N_scope.

Section SortKey.
  Context {A K : Type} (key : A -> K) (klt : K -> K -> bool).
  Hypothesis klt_trans : forall a b c, klt a b = true -> klt b c = true -> klt a c = true.
  Hypothesis klt_irrefl : forall a, klt a a = false.
  (* neither less than the other implies equal *)
  Hypothesis klt_total : forall a b, klt a b = false -> klt b a = false -> a = b.
  Let lt (a b : A) := klt (key a) (key b).
  Let le (a b : A) := lt b a = false.

  Lemma klt_asym a b : klt a b = true -> klt b a = false.
  Proof.
    intros H. destruct (klt b a) eqn:E; [|reflexivity].
    pose proof (klt_trans _ _ _ H E) as T. now rewrite klt_irrefl in T.
  Qed.

  Lemma kle_trans a b c : klt b a = false -> klt c b = false -> klt c a = false.
  Proof.
    intros H1 H2. destruct (klt c a) eqn:E; [|reflexivity].
    destruct (klt a b) eqn:Eab.
    - pose proof (klt_trans _ _ _ E Eab). congruence.
    - assert (a = b) by (apply klt_total; assumption). congruence.
  Qed.

  Lemma ins_perm x l : Permutation (ins_by lt x l) (x :: l).
  Proof.
    induction l as [|y l IH]; cbn; [reflexivity|].
    destruct (lt y x); [|reflexivity].
    rewrite IH. apply perm_swap.
  Qed.

  Lemma sort_perm l : Permutation (sort_by lt l) l.
  Proof.
    induction l as [|x l IH]; cbn; [reflexivity|].
    rewrite ins_perm. now constructor.
  Qed.

  Lemma ins_sorted x l : StronglySorted le l -> StronglySorted le (ins_by lt x l).
  Proof.
    induction 1 as [|y l Hs IH Hf]; cbn.
    - repeat constructor.
    - destruct (lt y x) eqn:E.
      + constructor; [assumption|].
        eapply Permutation_Forall; [symmetry; apply ins_perm|].
        constructor; [|assumption]. now apply klt_asym.
      + constructor; [now constructor|].
        constructor; [exact E|].
        eapply Forall_impl; [|exact Hf]. intros z Hz.
        eapply kle_trans; eassumption.
  Qed.

  Lemma sort_sorted l : StronglySorted le (sort_by lt l).
  Proof. induction l; cbn; [constructor | now apply ins_sorted]. Qed.

  Lemma sorted_strict l : NoDup (map key l) -> StronglySorted le l ->
    StronglySorted (fun a b => klt (key a) (key b) = true) l.
  Proof.
    induction l as [|x l IH]; intros Hn Hs; [constructor|].
    inversion Hn as [|? ? Hx Hn']; inversion Hs as [|? ? Hs' Hf]; subst. constructor; [auto|].
    rewrite Forall_forall in *. intros y Hy.
    destruct (klt (key x) (key y)) eqn:E; [reflexivity|].
    destruct Hx. rewrite (klt_total _ _ E (Hf _ Hy)). now apply in_map.
  Qed.

  Lemma sort_strict l : NoDup (map key l) ->
    StronglySorted (fun a b => klt (key a) (key b) = true) (sort_by lt l).
  Proof.
    intros Hn. apply sorted_strict; [|apply sort_sorted].
    eapply Permutation_NoDup; [|exact Hn]. apply Permutation_map. symmetry. apply sort_perm.
  Qed.
End SortKey.

Lemma str_ltb_cons x a y b : str_ltb (x :: a) (y :: b) = (x <? y) || (x =? y) && str_ltb a b.
Proof. cbn. destruct (N.ltb_spec x y), (N.ltb_spec y x), (N.eqb_spec x y); reflexivity || lia. Qed.

Lemma str_ltb_irrefl a : str_ltb a a = false.
Proof.
  induction a as [|x a IH]; [reflexivity|].
  now rewrite str_ltb_cons, N.ltb_irrefl, N.eqb_refl.
Qed.

Lemma str_ltb_trans a : forall b c, str_ltb a b = true -> str_ltb b c = true -> str_ltb a c = true.
Proof.
  induction a as [|x a IH]; intros [|y b] [|z c]; try easy.
  rewrite !str_ltb_cons, !orb_true_iff, !andb_true_iff, !N.ltb_lt, !N.eqb_eq.
  intros [H|[-> H]] [H'|[-> H']]; [left; lia | now left | now left | right; eauto].
Qed.

Lemma str_ltb_total a : forall b, str_ltb a b = false -> str_ltb b a = false -> a = b.
Proof.
  induction a as [|x a IH]; intros [|y b]; try easy.
  rewrite !str_ltb_cons. destruct (N.ltb_spec x y), (N.ltb_spec y x); try discriminate.
  assert (x = y) by lia. subst y. rewrite N.eqb_refl. intros H1 H2. f_equal. now apply IH.
Qed.

Lemma str_ltb_asym a b : str_ltb a b = true -> str_ltb b a = false.
Proof. apply (klt_asym str_ltb str_ltb_trans str_ltb_irrefl). Qed.

Lemma file_ltb_key : file_ltb = fun a b => str_ltb (fst a) (fst b).
Proof. reflexivity. Qed.

Lemma str_eqb_spec a b : reflect (a = b) (str_eqb a b).
Proof.
  apply iff_reflect. symmetry. apply str_eqb_iff.
Qed.

(* the (directory, element) order of embed.FS on split names *)
Definition key_ltb (x y : str * str) : bool :=
  if str_eqb (fst x) (fst y) then str_ltb (snd x) (snd y) else str_ltb (fst x) (fst y).

Lemma key_ltb_irrefl x : key_ltb x x = false.
Proof. unfold key_ltb. destruct (str_eqb_spec (fst x) (fst x)); [apply str_ltb_irrefl | congruence]. Qed.

Lemma key_ltb_trans x y z : key_ltb x y = true -> key_ltb y z = true -> key_ltb x z = true.
Proof.
  unfold key_ltb. destruct x as [a b], y as [c d], z as [e f]. cbn [fst snd].
  destruct (str_eqb_spec a c) as [->|Nac], (str_eqb_spec c e) as [->|Nce].
  - (* a = c = e *) apply str_ltb_trans.
  - (* a = c <> e *) intros _ Hce. exact Hce.
  - (* a <> c = e *) destruct (str_eqb_spec a e) as [Eae|_]; [congruence|]. intros Hac _. exact Hac.
  - destruct (str_eqb_spec a e) as [<-|_].
    + (* c between a and a *) intros Hac Hca. apply str_ltb_asym in Hac. congruence.
    + apply str_ltb_trans.
Qed.

Lemma key_ltb_total x y : key_ltb x y = false -> key_ltb y x = false -> x = y.
Proof.
  unfold key_ltb. destruct x as [a b], y as [c d]. cbn [fst snd].
  destruct (str_eqb_spec a c) as [->|Nac].
  - destruct (str_eqb_spec c c) as [_|Ncc]; [|congruence]. intros Hbd Hdb. f_equal. now apply str_ltb_total.
  - destruct (str_eqb_spec c a) as [Eca|_]; [congruence|]. intros Hac Hca.
    destruct Nac. now apply str_ltb_total.
Qed.

Section NodeInd.
  Variable P : node -> Prop.
  Hypothesis HF : forall d, P (File d).
  Hypothesis HD : forall es, Forall (fun e => P (snd e)) es -> P (Dir es).
  Hypothesis HL : forall t, P (Link t).
  Hypothesis HI : P Irreg.
  Fixpoint node_ind' (n : node) : P n :=
    match n with
    | File d => HF d
    | Dir es => HD es ((fix go (es : list (str * node)) : Forall (fun e => P (snd e)) es :=
                          match es with
                          | [] => Forall_nil _
                          | e :: es' => Forall_cons e (node_ind' (snd e)) (go es')
                          end) es)
    | Link t => HL t
    | Irreg => HI
    end.
End NodeInd.

(* the body of the loop in [walk] *)
Definition walk_item (all : bool) (prefix : str) (e : str * node) : list (str * str) :=
  if bad_name (fst e) || (hidden (fst e) && negb all) then []
  else match snd e with
       | Dir _ => if has_gomod (snd e) then [] else walk all (prefix ++ SLASH :: fst e) (snd e)
       | File d => [(prefix ++ SLASH :: fst e, d)]
       | _ => []
       end.

Lemma walk_dir all prefix es : walk all prefix (Dir es) = flat_map (walk_item all prefix) es.
Proof.
  induction es as [|[name child] es IH]; [reflexivity|].
  cbn [flat_map]. rewrite <- IH. unfold walk_item. cbn [fst snd].
  cbn [walk]. destruct (bad_name name || hidden name && negb all); destruct child; reflexivity.
Qed.

Lemma keeps_iff all name : bad_name name || hidden name && negb all = false <-> keeps all name.
Proof. unfold keeps. destruct (bad_name name), (hidden name), all; cbn; intuition congruence. Qed.

Lemma join_slash_cons c cs : cs <> [] -> join_slash (c :: cs) = c ++ SLASH :: join_slash cs.
Proof. destruct cs; [congruence | reflexivity]. Qed.

Lemma below_nonempty all es names d : Below all es names d -> names <> [].
Proof. destruct 1; discriminate. Qed.

Lemma walk_complete all es names d : Below all es names d ->
  forall prefix, In (prefix ++ SLASH :: join_slash names, d) (walk all prefix (Dir es)).
Proof.
  induction 1 as [es name d Hin Hk | es name es' names d Hin Hk Hg HB IH]; intros prefix;
    rewrite walk_dir; apply in_flat_map; apply keeps_iff in Hk.
  - exists (name, File d). split; [exact Hin|]. unfold walk_item. cbn [fst snd]. rewrite Hk. now left.
  - exists (name, Dir es'). split; [exact Hin|]. unfold walk_item. cbn [fst snd].
    rewrite Hk, Hg, join_slash_cons by (eapply below_nonempty; eassumption).
    specialize (IH (prefix ++ SLASH :: name)). now rewrite <- app_assoc in IH.
Qed.

Lemma walk_sound all es prefix p d : In (p, d) (walk all prefix (Dir es)) ->
  exists names, Below all es names d /\ p = prefix ++ SLASH :: join_slash names.
Proof.
  remember (Dir es) as n eqn:E. revert all es prefix p d E.
  induction n as [d0|es0 IH|t|] using node_ind'; intros all es prefix p d [= <-] Hin.
  rewrite walk_dir in Hin. apply in_flat_map in Hin as [[name child] [He Hi]].
  unfold walk_item in Hi. cbn [fst snd] in Hi.
  destruct (bad_name name || hidden name && negb all) eqn:Ek; [destruct Hi|].
  apply keeps_iff in Ek.
  rewrite Forall_forall in IH. specialize (IH _ He).
  destruct child as [d1|es'|t|]; try (now destruct Hi).
  - destruct Hi as [[= <- <-]|[]]. exists [name]. split; [now apply Below_file | reflexivity].
  - destruct (has_gomod (Dir es')) eqn:Eg; [destruct Hi|].
    apply (IH all es' _ p d eq_refl) in Hi as (names & HB & ->). exists (name :: names). split.
    + now apply Below_dir with (es' := es').
    + rewrite join_slash_cons by (eapply below_nonempty; eassumption). now rewrite <- app_assoc.
Qed.

Lemma walk_spec all es prefix p d :
  In (p, d) (walk all prefix (Dir es)) <->
  exists names, Below all es names d /\ p = prefix ++ SLASH :: join_slash names.
Proof.
  split; [apply walk_sound|].
  intros (names & HB & ->). now apply walk_complete.
Qed.

Lemma glob_go_spec : forall comps n acc chain,
  In chain (glob_go comps n acc) <-> exists ch, chain = acc ++ ch /\ Selects n comps ch.
Proof.
  induction comps as [|c rest IH]; intros n acc chain; cbn [glob_go].
  - split; [intros [] | intros (ch & _ & H); inversion H].
  - rewrite in_flat_map. split.
    + intros ([name child] & He & Hi). cbn [fst snd] in Hi.
      destruct (pm c name) eqn:Ep; [|destruct Hi].
      destruct rest as [|c2 rest].
      * destruct Hi as [<-|[]]. exists [(name, child)]. split; [reflexivity|]. now constructor.
      * apply IH in Hi as (ch & -> & HS). exists ((name, child) :: ch).
        split; [now rewrite <- app_assoc|]. now constructor.
    + intros (ch & -> & HS).
      inversion HS as [? ? name child He Hp | ? ? ? ? name child ch' He Hp HS']; subst.
      * exists (name, child). split; [assumption|]. cbn [fst snd]. rewrite Hp. now left.
      * exists (name, child). split; [assumption|]. cbn [fst snd]. rewrite Hp.
        apply IH. eexists. split; [|eassumption]. now rewrite <- app_assoc.
Qed.

Lemma glob_spec root pat chain :
  In chain (glob root pat) <-> Selects root (split_slash pat) chain.
Proof.
  unfold glob. rewrite glob_go_spec. split.
  - now intros (ch & -> & H).
  - intros H. now exists chain.
Qed.

Lemma selects_nonempty n comps chain : Selects n comps chain -> chain <> [].
Proof. destruct 1; discriminate. Qed.

(* [do_match] without the state: the files one match contributes *)
Definition match_files (nd all : bool) (chain : list (str * node)) : res (list (str * str)) :=
  match check_path nd chain with
  | Some e => Err e
  | None =>
    match last chain ([], Irreg) with
    | (_, File d) => Ok [(rel_of chain, d)]
    | (_, Dir es) => match walk_root all (rel_of chain) (Dir es) with
                     | [] => Err E_EMPTY
                     | fs => Ok fs
                     end
    | _ => Err E_IRREG
    end
  end.

Lemma do_match_eq nd all s chain :
  do_match nd all s chain =
  match match_files nd all chain with Err e => Err e | Ok fs => Ok (fold_left add_file fs s) end.
Proof.
  unfold do_match, match_files. destruct (check_path nd chain); [reflexivity|].
  destruct (last chain ([], Irreg)) as [nm [d|es|t|]]; try reflexivity.
  destruct (walk_root all (rel_of chain) (Dir es)); reflexivity.
Qed.

(* the checks on the directories above the match ([first] = false); the match
   itself is the head of the reversed chain and is dealt with in check_path_spec *)
Lemma check_up_spec nd rc :
  match check_up nd rc false with
  | None => forall x, In x rc ->
      has_gomod (snd x) = false /\ bad_name (fst x) = false /\ (nd = true -> is_dir (snd x) = true)
  | Some _ => exists x, In x rc /\
      (has_gomod (snd x) = true \/ bad_name (fst x) = true \/ nd = true /\ is_dir (snd x) = false)
  end.
Proof.
  induction rc as [|[name n] rc IH]; cbn [check_up]; [intros x []|].
  destruct (has_gomod n) eqn:Eg; [exists (name, n); cbn; auto|].
  destruct (nd && negb false && negb (is_dir n)) eqn:Ed.
  { exists (name, n). split; [now left|]. destruct nd, (is_dir n) eqn:E; try discriminate. auto. }
  destruct (bad_name name) eqn:Eb; [exists (name, n); cbn; auto|].
  destruct (check_up nd rc false).
  - destruct IH as (x & Hx & H). exists x. split; [now right | exact H].
  - intros x [<-|Hx]; [|now apply IH]. cbn. repeat split; try assumption.
    intros ->. now destruct (is_dir n).
Qed.

Lemma check_path_spec nd all chain :
  match check_path nd chain with
  | None => (forall x, In x chain -> has_gomod (snd x) = false /\ bad_name (fst x) = false)
            /\ (nd = true -> forall x, In x (removelast chain) -> is_dir (snd x) = true)
  | Some _ => BadEntry nd all chain
  end.
Proof.
  unfold check_path. destruct chain as [|[name n] l _] using rev_ind; [now split|].
  assert (Hl : forall x, In x l -> In x (l ++ [(name, n)])) by (intros; apply in_or_app; now left).
  pose proof (in_elt (name, n) l []) as Hn.
  rewrite rev_unit, removelast_last. cbn [check_up negb].
  destruct (has_gomod n) eqn:Eg; [now apply Bad_module with (name, n)|].
  rewrite andb_false_r.
  destruct (bad_name name) eqn:Eb; [now apply Bad_name with (name, n)|].
  pose proof (check_up_spec nd (rev l)) as H. destruct (check_up nd (rev l) false).
  - destruct H as (x & Hx & H). apply in_rev in Hx.
    destruct H as [H|[H|[H1 H2]]]; [apply Bad_module with x | apply Bad_name with x | apply Bad_nondir]; auto.
    exists x. now rewrite removelast_last.
  - split.
    + intros x Hx. apply in_app_or in Hx as [Hx|[<-|[]]]; [|now split]. apply in_rev, H in Hx. tauto.
    + intros -> x Hx. apply in_rev, H in Hx. now apply Hx.
Qed.

Lemma last_in {A} (l : list A) d : l <> [] -> In (last l d) l.
Proof.
  induction l as [|x l IH]; [congruence|]. intros _. destruct l as [|y l]; [now left|].
  right. apply IH. discriminate.
Qed.

Lemma gives_iff all chain p d :
  Gives all chain p d <->
  match snd (last chain ([], Irreg)) with
  | File d' => p = rel_of chain /\ d = d'
  | Dir es => has_gomod (Dir es) = false
              /\ exists names, Below all es names d /\ p = rel_of chain ++ SLASH :: join_slash names
  | _ => False
  end.
Proof.
  split.
  - (* Spec.v types the default entry with [list N], this statement with [str] *)
    intros [c nm d' H | c nm es ns d' H Hg HB]; unfold str in *; rewrite H; cbn.
    + now split.
    + split; [exact Hg|]. now exists ns.
  - destruct (last chain ([], Irreg)) as [nm [d'|es|t|]] eqn:El; cbn; try easy.
    + intros [-> ->]. eapply Gives_file; eassumption.
    + intros (Hg & names & HB & ->). eapply Gives_dir; eassumption.
Qed.

Lemma match_files_spec nd all chain :
  match match_files nd all chain with
  | Ok fs => fs <> [] /\ forall p d, In (p, d) fs <-> Gives all chain p d
  | Err _ => BadEntry nd all chain
  end.
Proof.
  unfold match_files. pose proof (check_path_spec nd all chain) as HC.
  destruct (check_path nd chain); [exact HC|]. destruct HC as [HC _].
  destruct (last chain ([], Irreg)) as [nm n] eqn:El.
  destruct n as [d0|es|t|]; [| |eapply Bad_symlink; eassumption|eapply Bad_irregular; eassumption].
  - split; [discriminate|]. intros p d. rewrite gives_iff, El. cbn.
    split; [intros [[= <- <-]|[]]; auto | intros [-> ->]; now left].
  - assert (Hg : has_gomod (Dir es) = false).
    { apply (HC (nm, Dir es)). rewrite <- El. apply last_in. intros ->. discriminate. }
    unfold walk_root. rewrite Hg. destruct (walk all (rel_of chain) (Dir es)) as [|f fs] eqn:Ew.
    + eapply Bad_empty; [eassumption|]. intros names d HB.
      pose proof (walk_complete _ _ _ _ HB (rel_of chain)) as Hin. now rewrite Ew in Hin.
    + split; [discriminate|]. intros p d. rewrite <- Ew, walk_spec, gives_iff, El. cbn. tauto.
Qed.

Lemma bad_entry_err nd all chain : BadEntry nd all chain -> exists e, match_files nd all chain = Err e.
Proof.
  intros HB. unfold match_files. pose proof (check_path_spec nd all chain) as HC.
  destruct (check_path nd chain); [eauto|]. destruct HC as [H1 H2].
  destruct HB as [x Hx Hg|Hn (x & Hx & Hd)|x Hx Hb|nm El|nm t El|nm es El Hno].
  - apply H1 in Hx as [Hx _]. congruence.
  - apply (H2 Hn) in Hx. congruence.
  - apply H1 in Hx as [_ Hx]. congruence.
  - rewrite El. eauto.
  - rewrite El. eauto.
  - rewrite El. unfold walk_root. destruct (has_gomod (Dir es)); [eauto|].
    destruct (walk all (rel_of chain) (Dir es)) as [|[p d] fs] eqn:Ew; [eauto|]. exfalso.
    assert (Hin : In (p, d) (walk all (rel_of chain) (Dir es))) by (rewrite Ew; now left).
    apply walk_spec in Hin as (names & HB & _). eapply Hno; eassumption.
Qed.

Lemma mem_str_in x l : mem_str x l = true <-> In x l.
Proof. apply existsb_eqb_In, str_eqb_iff. Qed.

Lemma add_have_in h k x : In x (add_have h k) <-> In x h \/ x = k.
Proof.
  unfold add_have. destruct (mem_str k h) eqn:E.
  - apply mem_str_in in E. split; [auto | now intros [H| ->]].
  - rewrite in_app_iff. cbn. intuition.
Qed.

Lemma add_have_nodup h k : NoDup h -> NoDup (add_have h k).
Proof.
  unfold add_have. destruct (mem_str k h) eqn:E; [auto|]. intros H.
  apply (Permutation_NoDup (Permutation_cons_append h k)). constructor; [|assumption].
  intros Hin. apply mem_str_in in Hin. congruence.
Qed.

Lemma fold_have_in ks : forall h x, In x (fold_left add_have ks h) <-> In x h \/ In x ks.
Proof.
  induction ks as [|k ks IH]; intros h x; cbn [fold_left In]; [tauto|].
  rewrite IH, add_have_in. intuition.
Qed.

Lemma fold_have_nodup ks : forall h, NoDup h -> NoDup (fold_left add_have ks h).
Proof. induction ks; cbn; auto using add_have_nodup. Qed.

(* both the names seen and the keys of the embed.FS table grow by [add_have] *)
Lemma add_seen_keys seen f : map fst (add_seen seen f) = add_have (map fst seen) (fst f).
Proof. unfold add_seen, add_have. destruct (mem_str _ _); [reflexivity|]. now rewrite map_app. Qed.

Lemma fold_seen_keys fs : forall seen,
  map fst (fold_left add_seen fs seen) = fold_left add_have (map fst fs) (map fst seen).
Proof. induction fs as [|f fs IH]; intros seen; cbn; [reflexivity|]. now rewrite IH, add_seen_keys. Qed.

Lemma fold_seen_in fs : forall seen x, In x (fold_left add_seen fs seen) -> In x seen \/ In x fs.
Proof.
  induction fs as [|f fs IH]; intros seen x; cbn [fold_left]; [auto|].
  intros H. apply IH in H as [H|H]; [|now right; right].
  unfold add_seen in H. destruct (mem_str _ _); [auto|].
  apply in_app_or in H as [H|[<-|[]]]; [auto | now right; left].
Qed.

Lemma fold_add_file fs : forall s,
  fold_left add_file fs s = (fold_left add_seen fs (fst s), fold_left add_have (map fst fs) (snd s)).
Proof. induction fs as [|f fs IH]; intros [seen have]; cbn; [reflexivity|]. now rewrite IH. Qed.

Lemma do_matches_spec nd all ms : forall s,
  match do_matches nd all s ms with
  | Ok s' => exists fs, s' = fold_left add_file fs s
                        /\ (forall p d, In (p, d) fs <-> exists m, In m ms /\ Gives all m p d)
                        /\ (ms <> [] -> fs <> [])
  | Err _ => exists m, In m ms /\ BadEntry nd all m
  end.
Proof.
  induction ms as [|m ms IH]; intros s; cbn [do_matches].
  - exists []. repeat split; [intros [] | intros (m & [] & _) | congruence].
  - rewrite do_match_eq. pose proof (match_files_spec nd all m) as Hm.
    destruct (match_files nd all m) as [fs1|e]; [|exists m; split; [now left | exact Hm]].
    destruct Hm as [Hne Hg]. specialize (IH (fold_left add_file fs1 s)).
    destruct (do_matches nd all (fold_left add_file fs1 s) ms).
    + destruct IH as (fs2 & -> & H2 & _). exists (fs1 ++ fs2). split; [now rewrite fold_left_app|]. split.
      * intros p d. rewrite in_app_iff, Hg, H2. split.
        -- intros [H|(m' & Hin & H)]; [exists m | exists m']; auto using in_eq, in_cons.
        -- intros (m' & [<-|Hin] & H); eauto.
      * intros _ H. now apply app_eq_nil in H.
    + destruct IH as (m' & Hin & HB). exists m'. split; [now right | assumption].
Qed.

Lemma do_matches_bad nd all ms : forall s m, In m ms -> BadEntry nd all m ->
  exists e, do_matches nd all s ms = Err e.
Proof.
  induction ms as [|m0 ms IH]; intros s m; [intros []|].
  intros [<-|Hin] HB; cbn [do_matches]; rewrite do_match_eq.
  - destruct (bad_entry_err _ _ _ HB) as [e ->]. eauto.
  - destruct (match_files nd all m0); [eapply IH; eassumption | eauto].
Qed.

Lemma do_matches_total nd all ms : forall s,
  (forall m, In m ms -> exists fs, match_files nd all m = Ok fs) -> exists s', do_matches nd all s ms = Ok s'.
Proof.
  intros s H. pose proof (do_matches_spec nd all ms s) as HM.
  destruct (do_matches nd all s ms) as [s'|e]; [eauto|].
  destruct HM as (m & Hin & HB). apply bad_entry_err in HB as [e' He']. destruct (H m Hin). congruence.
Qed.

(* what one pattern contributes, declaratively *)
Definition PatGives (root : node) (pat : str) (p d : str) : Prop :=
  exists chain, Selects root (split_slash (snd (cut_all pat))) chain /\ Gives (fst (cut_all pat)) chain p d.

Lemma do_pattern_spec nd root seen pat :
  match do_pattern nd root seen pat with
  | Ok seen' => exists fs, (forall p d, In (p, d) fs <-> PatGives root pat p d)
                           /\ seen' = fold_left add_seen fs seen
  | Err _ => PatternRejected nd root pat
  end.
Proof.
  unfold do_pattern, PatternRejected, PatGives.
  destruct (pattern_ok (snd (cut_all pat))); cbn [negb]; [|now left].
  pose proof (do_matches_spec nd (fst (cut_all pat)) (glob root (snd (cut_all pat))) (seen, [])) as HM.
  destruct (do_matches _ _ _ _) as [[s' have]|e].
  - destruct HM as (fs & Es & Hfs & Hne). rewrite fold_add_file in Es. injection Es as -> ->.
    setoid_rewrite glob_spec in Hfs.
    destruct fs as [|f fs].
    + right; left. intros chain HS. apply glob_spec in HS. apply Hne; [|reflexivity].
      intros E. now rewrite E in HS.
    + destruct (fold_left add_have _ _) eqn:Eh; [|now exists (f :: fs)].
      (* the name of [f] has been listed *)
      assert (Hin : In (fst f) []) by (rewrite <- Eh; apply fold_have_in; right; now left).
      destruct Hin.
  - destruct HM as (m & Hin & HB). right; right. exists m. split; [now apply glob_spec | assumption].
Qed.

Lemma pattern_rejected_err nd root seen pat :
  PatternRejected nd root pat -> exists e, do_pattern nd root seen pat = Err e.
Proof.
  unfold do_pattern. intros [H|[H|(chain & HS & HB)]].
  - rewrite H. cbn. eauto.
  - destruct (negb _); [eauto|]. destruct (glob root _) as [|m ms] eqn:Eg; [cbn; eauto|].
    destruct (H m). apply glob_spec. rewrite Eg. now left.
  - destruct (negb _); [eauto|]. apply glob_spec in HS.
    destruct (do_matches_bad nd _ _ (seen, []) _ HS HB) as [e ->]. eauto.
Qed.

Lemma embeds_cons root pat pats p d :
  Embeds root (pat :: pats) p d <-> PatGives root pat p d \/ Embeds root pats p d.
Proof.
  unfold Embeds, PatGives. split.
  - intros (pt & chain & [<-|Hin] & H); [left | right]; eauto.
  - intros [(chain & H)|(pt & chain & Hin & H)]; [exists pat, chain | exists pt, chain]; cbn; auto.
Qed.

Lemma resolve_go_spec nd root pats : forall seen,
  match resolve_go nd root pats seen with
  | Ok s => exists fs, (forall p d, In (p, d) fs <-> Embeds root pats p d) /\ s = fold_left add_seen fs seen
  | Err _ => Exists (PatternRejected nd root) pats
  end.
Proof.
  induction pats as [|pat pats IH]; intros seen; cbn [resolve_go].
  - exists []. split; [|reflexivity]. intros p d. split; [intros [] | now intros (pt & chain & [] & _)].
  - pose proof (do_pattern_spec nd root seen pat) as HP.
    destruct (do_pattern nd root seen pat) as [s1|e]; [|now left].
    destruct HP as (fs1 & H1 & ->). specialize (IH (fold_left add_seen fs1 seen)).
    destruct (resolve_go _ _ _ _); [|now right].
    destruct IH as (fs2 & H2 & ->). exists (fs1 ++ fs2). split; [|now rewrite fold_left_app].
    intros p d. now rewrite in_app_iff, H1, H2, embeds_cons.
Qed.

Lemma resolve_go_rejected nd root pats : forall seen,
  Exists (PatternRejected nd root) pats -> exists e, resolve_go nd root pats seen = Err e.
Proof.
  induction pats as [|pat pats IH]; intros seen H; inversion H as [? ? H1|? ? H1]; subst; cbn [resolve_go].
  - destruct (pattern_rejected_err nd root seen pat H1) as [e ->]. eauto.
  - destruct (do_pattern nd root seen pat); [now apply IH | eauto].
Qed.

(* The result holds the selected files and, for every selected path, one of
   the files selected at that path, in strictly ascending order of the paths. *)
Theorem resolve_gen_ok nd root pats l : resolve_gen nd root pats = Ok l ->
  StronglySorted (fun a b => str_ltb (fst a) (fst b) = true) l
  /\ (forall p d, In (p, d) l -> Embeds root pats p d)
  /\ (forall p d, Embeds root pats p d -> In p (map fst l)).
Proof.
  unfold resolve_gen. pose proof (resolve_go_spec nd root pats []) as HR.
  destruct (resolve_go nd root pats []) as [s|e]; [|discriminate].
  destruct HR as (fs & Hfs & ->). intros [= <-]. rewrite file_ltb_key.
  set (s := fold_left add_seen fs []).
  pose proof (sort_perm fst str_ltb s) as HP.
  assert (Hk : map fst s = fold_left add_have (map fst fs) []) by apply fold_seen_keys.
  repeat split.
  - apply (sort_strict fst str_ltb str_ltb_trans str_ltb_irrefl str_ltb_total).
    rewrite Hk. apply fold_have_nodup. constructor.
  - intros p d Hin. apply (Permutation_in _ HP), fold_seen_in in Hin as [[]|Hin]. now apply Hfs.
  - intros p d HE. apply (Permutation_in _ (Permutation_map fst (Permutation_sym HP))).
    rewrite Hk. apply fold_have_in. right. apply Hfs in HE. now apply (in_map fst) in HE.
Qed.

Theorem resolve_gen_err nd root pats :
  (exists e, resolve_gen nd root pats = Err e) <-> Exists (PatternRejected nd root) pats.
Proof.
  unfold resolve_gen. pose proof (resolve_go_spec nd root pats []) as HR. split.
  - intros [e H]. now destruct (resolve_go nd root pats []).
  - intros H. destruct (resolve_go_rejected nd root pats [] H) as [e ->]. eauto.
Qed.

Lemma sorted_nodup (l : list (str * str)) :
  StronglySorted (fun a b => str_ltb (fst a) (fst b) = true) l -> NoDup (map fst l).
Proof.
  induction 1 as [|x l Hs IH Hf]; cbn; constructor; [|assumption].
  intros Hin. apply in_map_iff in Hin as (y & E & Hy). rewrite Forall_forall in Hf.
  specialize (Hf _ Hy). rewrite E, str_ltb_irrefl in Hf. discriminate.
Qed.

(* the cmd/go non-directory rule: without it a selected path may run through a symbolic link *)
Definition wit_root : node :=
  Dir [([108], Link (Some (Dir [([102; 46; 116; 120; 116], File [104; 105])])))].
Definition wit_pats : list str := [[108; 47; 102; 46; 116; 120; 116]].

Lemma symlink_parent_witness :
  resolve_gen false wit_root wit_pats = Ok [([108; 47; 102; 46; 116; 120; 116], [104; 105])]
  /\ resolve wit_root wit_pats = Err E_NONDIR
  /\ exists chain, Selects wit_root (split_slash (snd (cut_all [108; 47; 102; 46; 116; 120; 116]))) chain
                   /\ ThroughLink chain.
Proof.
  split; [vm_compute; reflexivity|]. split; [vm_compute; reflexivity|].
  eexists. split.
  - apply Sel_step; [now left | vm_compute; reflexivity|].
    apply Sel_last; [now left | vm_compute; reflexivity].
  - eexists. split; [now left | reflexivity].
Qed.

Lemma put_in m : forall k v x, In x (put m k v) -> x = (k, v) \/ In x m.
Proof.
  induction m as [|[k' v'] m IH]; intros k v x; cbn [put].
  - intros [<-|[]]. now left.
  - destruct (str_eqb k k'); cbn [In]; intros [<-|H]; auto.
    apply IH in H as [H|H]; auto.
Qed.

Lemma put_has m : forall k v, In (k, v) (put m k v).
Proof.
  induction m as [|[k' v'] m IH]; intros k v; cbn [put]; [now left|].
  destruct (str_eqb k k'); [now left | right; apply IH].
Qed.

Lemma put_keeps m : forall k v x, In x m -> fst x <> k -> In x (put m k v).
Proof.
  induction m as [|[k' v'] m IH]; intros k v x; cbn [put]; [intros []|].
  destruct (str_eqb_spec k k') as [<-|N]; intros [<-|H] Hne; [easy | now right | now left | right; auto].
Qed.

Lemma put_keys m : forall k v, map fst (put m k v) = add_have (map fst m) k.
Proof.
  induction m as [|[k' v'] m IH]; intros k v; [reflexivity|].
  cbn [put map fst]. unfold add_have, mem_str. cbn [existsb].
  destruct (str_eqb_spec k k') as [->|N]; cbn [map fst orb]; [reflexivity|].
  rewrite IH. unfold add_have, mem_str. now destruct (existsb _ _).
Qed.

(* The table is built by a sequence of writes ([put]): per file its bytes, then
   nil for each parent directory.  A name only ever written with one value holds
   that value at the end ([puts_agree]). *)
Definition put_pair (m : list entry) (kv : entry) : list entry := put m (fst kv) (snd kv).
Definition file_writes (f : str * str) : list entry :=
  (fst f, Some (snd f)) :: map (fun d => (d, None)) (parents (fst f)).

Lemma table_writes files : forall m,
  fold_left add_entries files m = fold_left put_pair (flat_map file_writes files) m.
Proof.
  induction files as [|f files IH]; intros m; cbn [fold_left flat_map]; [reflexivity|].
  rewrite fold_left_app, IH. f_equal. unfold add_entries, file_writes. cbn [fold_left]. unfold put_pair at 2. cbn [fst snd].
  generalize (put m (fst f) (Some (snd f))). induction (parents (fst f)); intros m'; cbn; auto.
Qed.

Lemma writes_in files k v :
  In (k, v) (flat_map file_writes files) <->
  (exists d, v = Some d /\ In (k, d) files) \/ (v = None /\ exists f, In f files /\ In k (parents (fst f))).
Proof.
  rewrite in_flat_map. unfold file_writes. split.
  - intros ([k0 d0] & Hf & [[= <- <-]|Hin]); [left; eauto|].
    apply in_map_iff in Hin as (d & [= <- <-] & Hd). right; eauto.
  - intros [(d & -> & Hin)|(-> & f & Hin & Hp)]; [exists (k, d) | exists f]; (split; [assumption|]).
    + now left.
    + right. apply in_map_iff. eauto.
Qed.

Lemma puts_in ws : forall m x, In x (fold_left put_pair ws m) -> In x m \/ In x ws.
Proof.
  induction ws as [|[k v] ws IH]; intros m x; cbn [fold_left]; [auto|].
  intros H. apply IH in H as [H|H]; [|now right; right].
  apply put_in in H as [->|H]; [right; now left | now left].
Qed.

Lemma puts_keys ws : forall m, map fst (fold_left put_pair ws m) = fold_left add_have (map fst ws) (map fst m).
Proof.
  induction ws as [|w ws IH]; intros m; cbn [fold_left map]; [reflexivity|].
  rewrite IH. unfold put_pair. now rewrite put_keys.
Qed.

Lemma puts_agree ws : forall m k v, In (k, v) m \/ In (k, v) ws ->
  (forall v', In (k, v') ws -> v' = v) -> In (k, v) (fold_left put_pair ws m).
Proof.
  induction ws as [|[k0 v0] ws IH]; intros m k v Hin Hv; cbn [fold_left]; [now destruct Hin|].
  apply IH; [|intros v' H; apply Hv; now right].
  destruct (str_eqb_spec k0 k) as [->|N].
  - left. rewrite (Hv v0) by now left. apply put_has.
  - destruct Hin as [H|[[= E _]|H]]; [left | easy | now right].
    apply put_keeps; [assumption | cbn; congruence].
Qed.

Definition ends_slash (s : str) : Prop := last s 0 = SLASH.

Lemma parents_go_end fuel : forall dir d, In d (parents_go fuel dir) -> ends_slash d.
Proof.
  induction fuel as [|f IH]; intros dir d; cbn [parents_go]; [intros []|].
  destruct (str_eqb dir [DOT] || str_eqb dir [SLASH]); [intros []|].
  intros [<-|H]; [|eauto]. unfold ends_slash. now rewrite last_last.
Qed.

Lemma parents_end name d : In d (parents name) -> ends_slash d.
Proof. apply parents_go_end. Qed.

(* the split name by which embed.FS orders and searches the table *)
Definition ekey (e : entry) : str * str := embed_split (fst e).

Lemma embed_ltb_key : embed_ltb = fun a b => key_ltb (ekey a) (ekey b).
Proof. reflexivity. Qed.

Lemma fs_entries_perm files : Permutation (fs_entries files) (fold_left put_pair (flat_map file_writes files) []).
Proof. unfold fs_entries. rewrite table_writes, embed_ltb_key. apply (sort_perm ekey key_ltb). Qed.

Lemma fs_entries_in files x : In x (fs_entries files) <-> In x (fold_left put_pair (flat_map file_writes files) []).
Proof. split; apply Permutation_in; [|symmetry]; apply fs_entries_perm. Qed.

Lemma nodup_fst_inj {A B} (l : list (A * B)) k v v' :
  NoDup (map fst l) -> In (k, v) l -> In (k, v') l -> v = v'.
Proof.
  induction l as [|x l IH]; [easy|]. inversion 1 as [|? ? Hx Hn]; subst.
  intros [->|H1] [E|H2]; [congruence | | | auto]; destruct Hx.
  - now apply (in_map fst) in H2.
  - subst x. now apply (in_map fst) in H1.
Qed.

Lemma nodup_map_inj {A B} (f : A -> B) (l : list A) :
  (forall a b, In a l -> In b l -> f a = f b -> a = b) -> NoDup l -> NoDup (map f l).
Proof.
  induction l as [|x l IH]; intros Hi Hn; cbn; [constructor|].
  inversion Hn; subst. constructor.
  - intros Hin. apply in_map_iff in Hin as (y & E & Hy).
    assert (y = x) by (apply Hi; [now right | now left | assumption]). now subst.
  - apply IH; [|assumption]. intros a b Ha Hb. apply Hi; now right.
Qed.

Lemma fs_entries_writes files x : In x (fs_entries files) -> In x (flat_map file_writes files).
Proof. intros H. now apply fs_entries_in, puts_in in H as [[]|H]. Qed.

(* parents end in a slash: if no file name does, files and directories never
   write to the same name *)
Lemma fs_entries_has files k v :
  (forall f, In f files -> ~ ends_slash (fst f)) ->
  (forall d d', In (k, d) files -> In (k, d') files -> d = d') ->
  In (k, v) (flat_map file_writes files) -> In (k, v) (fs_entries files).
Proof.
  intros Hf Hk Hin. apply fs_entries_in, puts_agree; [now right|].
  intros v' Hv'. apply writes_in in Hin, Hv'.
  destruct Hin as [(d & -> & Hd)|(-> & f & _ & Hp)], Hv' as [(d' & -> & Hd')|(-> & f' & _ & Hp')].
  - f_equal. auto.
  - destruct (Hf _ Hd). eapply parents_end, Hp'.
  - destruct (Hf _ Hd'). eapply parents_end, Hp.
  - reflexivity.
Qed.

Definition parse_args (args : str) : option (list str) :=
  match split_args args with None => None | Some fs => unquote_fields fs end.

Definition field (q : style * str) : str := quote_arg (fst q) (snd q).
(* what follows a field in a rendered line *)
Definition tail_ok (t : str) : Prop := t = [] \/ exists r, t = SP :: r.

Lemma space_at_ascii c r : (c <? 128) = true ->
  space_at (c :: r) = if is_space c then 1%nat else 0%nat.
Proof. intros H. unfold space_at, decode_rune. rewrite H. reflexivity. Qed.

Lemma space_at_sp r : space_at (SP :: r) = 1%nat.
Proof. reflexivity. Qed.

Definition bare_byte (b : N) : bool := (b <? 128) && negb (is_space b).

Lemma style_bare_cons c a :
  style_ok Bare (c :: a) = negb ((c =? DQ) || (c =? BQ)) && forallb bare_byte (c :: a).
Proof. reflexivity. Qed.

Lemma space_at_bare c r : bare_byte c = true -> space_at (c :: r) = 0%nat.
Proof.
  intros H. apply andb_true_iff in H as [H1 H2]. apply negb_true_iff in H2.
  rewrite space_at_ascii by assumption. now rewrite H2.
Qed.

Lemma split_bare_app a : forall t, forallb bare_byte a = true -> tail_ok t ->
  split_bare (a ++ t) = (a, t).
Proof.
  induction a as [|c a IH]; intros t Ha Ht.
  - now destruct Ht as [->|[r ->]].
  - apply andb_true_iff in Ha as [Hc Ha].
    cbn [app split_bare]. rewrite space_at_bare by assumption.
    now rewrite IH.
Qed.

Lemma tail_check t : tail_ok t -> negb (is_nil t) && Nat.eqb (space_at t) 0 = false.
Proof. now intros [->|[r ->]]. Qed.

Lemma split_quoted_back a : forall t, style_ok Back a = true ->
  split_quoted BQ (a ++ BQ :: t) = Some (a ++ [BQ], t).
Proof.
  induction a as [|c a IH]; intros t Ha; [reflexivity|].
  apply andb_true_iff in Ha as [Hc Ha]. apply andb_true_iff in Hc as [Hc _].
  apply negb_true_iff in Hc. cbn [app split_quoted]. rewrite Hc. now rewrite IH.
Qed.

Lemma split_quoted_dq a : forall t, split_quoted DQ (esc_dq a ++ DQ :: t) = Some (esc_dq a ++ [DQ], t).
Proof.
  induction a as [|c a IH]; intros t; [reflexivity|].
  cbn [esc_dq]. destruct ((c =? DQ) || (c =? BS)) eqn:E; cbn [app split_quoted].
  - now rewrite IH.
  - apply orb_false_iff in E as [E1 E2]. rewrite E1, E2, andb_false_r. now rewrite IH.
Qed.

Lemma split_args_quoted fuel q s fld t l : q = DQ \/ q = BQ ->
  split_quoted q s = Some (fld, t) -> tail_ok t -> split_args_go fuel t = Some l ->
  split_args_go (S fuel) (q :: s) = Some ((q :: fld) :: l).
Proof.
  intros Hq Hs Ht Hl. cbn [split_args_go]. rewrite Hs, tail_check, Hl by assumption.
  now destruct Hq as [-> | ->].
Qed.

Lemma split_one st a t fuel l : style_ok st a = true -> tail_ok t ->
  split_args_go fuel t = Some l ->
  split_args_go (S fuel) (quote_arg st a ++ t) = Some (quote_arg st a :: l).
Proof.
  intros Hs Ht Hl. destruct st; cbn [quote_arg app]; rewrite <- ?app_assoc.
  - destruct a as [|c a]; [discriminate|]. rewrite style_bare_cons in Hs.
    apply andb_true_iff in Hs as [Hq Hb]. apply negb_true_iff in Hq. pose proof Hb as Hc. apply andb_true_iff in Hc as [Hc _].
    cbn [app split_args_go]. rewrite (space_at_bare c), Hq by exact Hc.
    change (c :: a ++ t) with ((c :: a) ++ t). rewrite split_bare_app by assumption.
    cbn [fst snd]. now rewrite Hl.
  - apply split_args_quoted with (t := t); auto. now apply split_quoted_back.
  - apply split_args_quoted with (t := t); auto. apply split_quoted_dq.
Qed.

Lemma split_args_nil fuel : split_args_go fuel [] = Some [].
Proof. destruct fuel; reflexivity. Qed.

(* one unit of fuel per field and per separating space *)
Lemma split_args_render qs : Forall (fun q => style_ok (fst q) (snd q) = true) qs ->
  forall F, (length (join_sp (map field qs)) < F)%nat ->
  split_args_go F (join_sp (map field qs)) = Some (map field qs).
Proof.
  induction 1 as [|q qs Hq Hqs IH]; intros F HF; [apply split_args_nil|].
  destruct F as [|fuel]; [lia|]. destruct qs as [|q2 qs].
  - cbn [map join_sp]. unfold field. rewrite <- (app_nil_r (quote_arg _ _)) at 1.
    apply split_one; [assumption | now left | apply split_args_nil].
  - change (join_sp (map field (q :: q2 :: qs))) with (field q ++ SP :: join_sp (map field (q2 :: qs))) in *.
    apply split_one; [assumption | right; eauto |].
    assert (Hlen : (0 < length (field q))%nat) by (destruct q as [[| |] [|c a]]; cbn; (discriminate || lia)).
    rewrite app_length in HF. cbn [length] in HF.
    destruct fuel as [|f2]; [lia|]. cbn [split_args_go]. rewrite space_at_sp. apply IH. lia.
Qed.

(* the raw string scan inside [unquote] *)
Fixpoint upto_bq (l : str) : str * str :=
  match l with
  | [] => ([], [])
  | c :: l' => if c =? BQ then ([], l') else let p := upto_bq l' in (c :: fst p, snd p)
  end.

Lemma upto_back a : style_ok Back a = true ->
  upto_bq (a ++ [BQ]) = (a, []) /\ filter (fun c => negb (c =? 13)) a = a.
Proof.
  induction a as [|c a IH]; intros Ha; [now split|].
  apply andb_true_iff in Ha as [Hc Ha]. apply andb_true_iff in Hc as [Hc Hr].
  apply negb_true_iff in Hc. destruct (IH Ha) as [IH1 IH2].
  cbn [app upto_bq filter]. now rewrite Hc, Hr, IH1, IH2.
Qed.

Lemma unquote_quoted_head q body :
  Nat.ltb (length (q :: body ++ [q])) 2 = false /\ existsb (N.eqb q) (body ++ [q]) = true.
Proof.
  split.
  - apply Nat.ltb_ge. cbn [length]. rewrite app_length. cbn. lia.
  - rewrite existsb_app. cbn. now rewrite N.eqb_refl, orb_true_r.
Qed.

Lemma unquote_back a : style_ok Back a = true -> unquote (quote_arg Back a) = Some a.
Proof.
  intros Ha. cbn [quote_arg]. unfold unquote. destruct (unquote_quoted_head BQ a) as [-> ->].
  fold upto_bq. destruct (upto_back a Ha) as [-> Hf]. cbn. now rewrite Hf.
Qed.

Lemma unquote_char_plain c rest : (c <? 128) = true -> (c =? DQ) = false -> (c =? BS) = false ->
  unquote_char (c :: rest) DQ = Some ([c], rest).
Proof.
  intros H1 H2 H3. unfold unquote_char. rewrite H2.
  assert (H4 : (128 <=? c) = false) by (apply N.leb_gt; now apply N.ltb_lt).
  now rewrite H4, H3.
Qed.

Lemma unquote_char_esc c rest : (c =? DQ) || (c =? BS) = true ->
  unquote_char (BS :: c :: rest) DQ = Some ([c], rest).
Proof.
  intros H. apply orb_true_iff in H as [H|H]; apply N.eqb_eq in H; subst c; reflexivity.
Qed.

Lemma unquote_body_dq a : forall buf fuel,
  style_ok Double a = true -> (length (esc_dq a) < fuel)%nat ->
  unquote_body fuel DQ (esc_dq a ++ [DQ]) buf = Some (buf ++ a, []).
Proof.
  induction a as [|c a IH]; intros buf fuel Ha HF.
  - destruct fuel; [cbn in HF; lia|]. now rewrite app_nil_r.
  - apply andb_true_iff in Ha as [Hc Ha]. apply andb_true_iff in Hc as [Hc1 Hc2].
    apply negb_true_iff in Hc2. cbn [esc_dq] in *.
    destruct ((c =? DQ) || (c =? BS)) eqn:E; cbn [length] in HF;
      (destruct fuel as [|fuel]; [lia|]); cbn [app unquote_body].
    + rewrite unquote_char_esc by assumption.
      rewrite IH by (assumption || lia). now rewrite <- app_assoc.
    + apply orb_false_iff in E as [E1 E2]. rewrite E1, Hc2, unquote_char_plain by assumption.
      rewrite IH by (assumption || lia). now rewrite <- app_assoc.
Qed.

Lemma unquote_double a : style_ok Double a = true -> unquote (quote_arg Double a) = Some a.
Proof.
  intros Ha. cbn [quote_arg]. unfold unquote. destruct (unquote_quoted_head DQ (esc_dq a)) as [-> ->].
  rewrite unquote_body_dq; [reflexivity | assumption |]. cbn [length]. rewrite app_length. lia.
Qed.

Lemma unquote_fields_render qs : Forall (fun q => style_ok (fst q) (snd q) = true) qs ->
  unquote_fields (map field qs) = Some (map snd qs).
Proof.
  induction 1 as [|[st a] qs Hq Hqs IH]; [reflexivity|].
  cbn [map unquote_fields]. rewrite IH. unfold field. cbn [fst snd] in *. destruct st.
  - destruct a as [|c a]; [discriminate|]. rewrite style_bare_cons in Hq.
    apply andb_true_iff in Hq as [Hq _]. apply negb_true_iff in Hq. cbn [quote_arg]. now rewrite Hq.
  - now rewrite unquote_back.
  - now rewrite unquote_double.
Qed.

Section FoldResP.
  Context {X M : Type} (step : X -> M -> res M).
  Hypothesis indep : forall x m m' e, step x m = Err e -> step x m' = Err e.

  Lemma fold_res_indep xs : forall m m' e, fold_res step xs m = Err e -> fold_res step xs m' = Err e.
  Proof.
    induction xs as [|x xs IH]; intros m m' e; cbn [fold_res]; [discriminate|].
    destruct (step x m) as [m1|e1] eqn:E1.
    - destruct (step x m') as [m2|e2] eqn:E2; [apply IH|]. apply (indep x m' m) in E2. congruence.
    - now rewrite (indep x m m' e1 E1).
  Qed.

  Lemma fold_res_err_iff xs : forall m,
    (exists e, fold_res step xs m = Err e) <-> Exists (fun x => exists e, step x m = Err e) xs.
  Proof.
    assert (Hm : forall l m m', Exists (fun x => exists e, step x m = Err e) l ->
                                Exists (fun x => exists e, step x m' = Err e) l).
    { intros l m m'. apply Exists_impl. intros x [e He]. exists e. now apply (indep x m). }
    induction xs as [|x xs IH]; intros m; cbn [fold_res].
    - split; [intros [e H]; discriminate | intros H; inversion H].
    - destruct (step x m) as [m1|e1] eqn:E1.
      + rewrite IH. split; [right; eauto|]. intros H. inversion H as [? ? [e He]|? ? H']; subst; [congruence | eauto].
      + split; eauto.
  Qed.
End FoldResP.

Lemma load_spec_indep root imp single gdoc s m m' e :
  load_spec root imp single gdoc s m = Err e -> load_spec root imp single gdoc s m' = Err e.
Proof.
  unfold load_spec. destruct (parse_docs (spec_docs single gdoc s) [] false) as [ps [|]|]; try (intros; assumption || discriminate).
  destruct (vs_names s) as [|name [|]]; try (intros; assumption).
  destruct (negb imp); [intros; assumption|].
  destruct (resolve root ps); [discriminate | intros; assumption].
Qed.

Lemma load_decl_indep root imp d m m' e :
  load_decl root imp d m = Err e -> load_decl root imp d m' = Err e.
Proof.
  unfold load_decl. destruct (is_multi (vd_specs d) && has_directive (vd_doc d)); [easy|].
  apply fold_res_indep, load_spec_indep.
Qed.

Lemma load_file_indep root f m m' e :
  load_file root f m = Err e -> load_file root f m' = Err e.
Proof. unfold load_file. apply fold_res_indep, load_decl_indep. Qed.

Lemma load_spec_noimport root single gdoc s m : spec_uses single gdoc s = true ->
  exists e, load_spec root false single gdoc s m = Err e.
Proof.
  unfold load_spec, spec_uses, has_directive.
  destruct (parse_docs (spec_docs single gdoc s) [] false) as [ps [|]|]; [|discriminate|eauto].
  intros _. destruct (vs_names s) as [|name [|]]; cbn; eauto.
Qed.

Lemma load_decl_noimport root d m : decl_uses d = true -> exists e, load_decl root false d m = Err e.
Proof.
  unfold load_decl, decl_uses.
  destruct (is_multi (vd_specs d) && has_directive (vd_doc d)); [eauto|].
  intros Hu. apply existsb_exists in Hu as (s & Hs & Hus).
  apply (fold_res_err_iff _ (load_spec_indep _ _ _ _)).
  apply Exists_exists. exists s. split; [assumption | now apply load_spec_noimport].
Qed.

Lemma load_file_noimport root f m : file_uses f = true -> gf_embed f = false ->
  exists e, load_file root f m = Err e.
Proof.
  unfold load_file, file_uses. intros Hu ->. apply existsb_exists in Hu as (d & Hd & Hud).
  apply (fold_res_err_iff _ (load_decl_indep _ _)).
  apply Exists_exists. exists d. split; [assumption | now apply load_decl_noimport].
Qed.

Lemma bytes_stores_ids vars : forall next,
  map snd (fst (bytes_stores vars next)) = map (fun k => next + N.of_nat k) (seq 0 (length vars)).
Proof.
  induction vars as [|[name data] vs IH]; intros next; [reflexivity|].
  cbn [bytes_stores fst map snd length seq]. rewrite IH. f_equal; [lia|].
  rewrite <- seq_shift, map_map. apply map_ext. intros k. lia.
Qed.

Lemma set_nth_other {A} (d : A) : forall n m x l, n <> m -> nth m (set_nth n x l) d = nth m l d.
Proof.
  induction n as [|n IH]; intros [|m] x [|y l] H; cbn; try reflexivity; try congruence.
  apply IH. congruence.
Qed.
