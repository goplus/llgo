(* C16 - property theorems only.  Each follows in a few lines from the lemmas of
   Proofs.v and is followed by Print Assumptions (the driver re-prints them on
   every run).
   [resolve] is the model of goembed.ResolvePatterns, [fs_entries] of
   BuildFSEntries, [split_args]/[unquote_fields] of SplitArgs and the unquoting
   loop of ParsePatterns (Model.v).  [Embeds], [Selects], [Below],
   [PatternRejected] are the go tool's rules written independently (Spec.v). *)
From LLGoV Require Import C16.Model C16.Spec C16.Proofs.
From Coq Require Import Sorting.Sorted.
Local Open Scope N_scope.

(* Everything delivered is a file the rules select, with the bytes of that
   file: for every tree and every pattern list. *)
Theorem resolve_sound : forall root pats l p d,
  resolve root pats = Ok l -> In (p, d) l -> Embeds root pats p d.
Proof. intros root pats l p d H. apply (resolve_gen_ok true) in H. now apply H. Qed.
Print Assumptions resolve_sound.

(* Every file the rules select (directly, or below a selected directory with
   the hidden / underscore / all: / bad-name / nested-module rules) is delivered.
   The bytes are those of a file the rules select at that path (with unique
   names per directory there is only one). *)
Theorem resolve_complete : forall root pats l p d,
  resolve root pats = Ok l -> Embeds root pats p d ->
  exists d', In (p, d') l /\ Embeds root pats p d'.
Proof.
  intros root pats l p d H HE. destruct (resolve_gen_ok true _ _ _ H) as (_ & Hs & Hc).
  apply Hc, in_map_iff in HE as ([p' d'] & <- & Hin). exists d'. split; [assumption | now apply Hs].
Qed.
Print Assumptions resolve_complete.

(* The result is strictly sorted by name (Go string order), hence duplicate free. *)
Theorem resolve_sorted_nodup : forall root pats l,
  resolve root pats = Ok l ->
  StronglySorted (fun a b => str_ltb (fst a) (fst b) = true) l /\ NoDup (map fst l).
Proof.
  intros root pats l H. destruct (resolve_gen_ok true _ _ _ H) as (S & _).
  split; [exact S | now apply sorted_nodup].
Qed.
Print Assumptions resolve_sorted_nodup.

(* The directive is refused exactly when some pattern is refused by the go
   tool's rules: bad syntax / invalid path, nothing selected, or a selected
   entry that lies in another module, is reached through a non-directory
   (symbolic link), has or lies below an invalid name, is irregular (symlink,
   fifo...) or is a directory without any embeddable file. *)
Theorem resolve_rejects_iff : forall root pats,
  (exists e, resolve root pats = Err e) <-> Exists (PatternRejected true root) pats.
Proof. exact (resolve_gen_err true). Qed.
Print Assumptions resolve_rejects_iff.

(* in particular (cmd/go: "in non-directory"): a pattern whose selected path
   runs through something that is not a directory itself is refused *)
Theorem rejects_through_non_directory : forall root pats pat chain,
  In pat pats -> Selects root (split_slash (snd (cut_all pat))) chain -> ThroughLink chain ->
  exists e, resolve root pats = Err e.
Proof.
  intros root pats pat chain Hp HS HT. apply (resolve_gen_err true), Exists_exists.
  exists pat. split; [assumption|]. right; right. exists chain. split; [assumption | now apply Bad_nondir].
Qed.
Print Assumptions rejects_through_non_directory.

(* The code before the fix (resolve_gen false: no non-directory test) embedded
   through a symlinked parent directory; the same input is now refused with
   the go tool's error class.  The harness replays it as case w00000. *)
Theorem through_symlink_before_fix_refuted :
  exists root pat l chain,
    resolve_gen false root [pat] = Ok l /\ l <> []
    /\ Selects root (split_slash (snd (cut_all pat))) chain /\ ThroughLink chain
    /\ resolve root [pat] = Err E_NONDIR.
Proof.
  destruct symlink_parent_witness as (H & H2 & chain & HS & HT).
  exists wit_root, [108; 47; 102; 46; 116; 120; 116], [([108; 47; 102; 46; 116; 120; 116], [104; 105])], chain.
  repeat split; try assumption. discriminate.
Qed.
Print Assumptions through_symlink_before_fix_refuted.

Example resolve_nontrivial :
  (* a/{x.txt,.h,_u/y,sub/{go.mod,z},d/w}, b.txt; patterns a and all:a/_u *)
  let t := Dir [([97], Dir [([46; 104], File [1]);
                            ([95; 117], Dir [([121], File [2])]);
                            ([100], Dir [([119], File [3])]);
                            ([115; 117; 98], Dir [([103; 111; 46; 109; 111; 100], File []); ([122], File [4])]);
                            ([120; 46; 116; 120; 116], File [5])]);
                ([98; 46; 116; 120; 116], File [6])] in
  resolve t [[97]; [97; 108; 108; 58; 97; 47; 95; 117]]
  = Ok [([97; 47; 95; 117; 47; 121], [2]); ([97; 47; 100; 47; 119], [3]); ([97; 47; 120; 46; 116; 120; 116], [5])].
Proof. vm_compute. reflexivity. Qed.

(* ordered the way embed.FS binary-searches it: by (directory, element) *)
Theorem fs_entries_sorted : forall files,
  StronglySorted (fun a b => embed_ltb b a = false) (fs_entries files).
Proof.
  intros files. unfold fs_entries. rewrite embed_ltb_key.
  apply (sort_sorted ekey key_ltb key_ltb_trans key_ltb_irrefl key_ltb_total).
Qed.
Print Assumptions fs_entries_sorted.

(* no name occurs twice: every file and every parent directory exactly once *)
Theorem fs_entries_names_nodup : forall files, NoDup (map fst (fs_entries files)).
Proof.
  intros files. eapply Permutation.Permutation_NoDup.
  - apply Permutation.Permutation_map, Permutation.Permutation_sym, fs_entries_perm.
  - rewrite puts_keys. apply fold_have_nodup. constructor.
Qed.
Print Assumptions fs_entries_names_nodup.

(* strictly ordered as soon as no two names share the same (directory, element)
   split, i.e. no path is both a file and a directory (partial: the hypothesis
   is about the table; it holds for every list that comes from a file tree) *)
Theorem fs_entries_strictly_sorted_partial : forall files,
  (forall a b, In a (map fst (fs_entries files)) -> In b (map fst (fs_entries files)) ->
               embed_split a = embed_split b -> a = b) ->
  StronglySorted (fun a b => embed_ltb a b = true) (fs_entries files).
Proof.
  intros files Hinj. pose proof (fs_entries_sorted files) as Hs. rewrite embed_ltb_key in *.
  apply (sorted_strict ekey key_ltb key_ltb_total); [|exact Hs].
  unfold ekey. rewrite <- map_map. apply nodup_map_inj; [exact Hinj | apply fs_entries_names_nodup].
Qed.
Print Assumptions fs_entries_strictly_sorted_partial.

Theorem fs_entries_bytes_preserved : forall files,
  NoDup (map fst files) -> (forall f, In f files -> ~ ends_slash (fst f)) ->
  forall k d, In (k, d) files -> In (k, Some d) (fs_entries files).
Proof.
  intros files Hn Hf k d Hin. apply fs_entries_has; [assumption | |apply writes_in; left; eauto].
  intros d1 d2. now apply nodup_fst_inj.
Qed.
Print Assumptions fs_entries_bytes_preserved.

(* every parent directory of every file is present (as name/ with nil data) *)
Theorem fs_entries_parents_present : forall files,
  (forall f, In f files -> ~ ends_slash (fst f)) ->
  forall f dname, In f files -> In dname (parents (fst f)) -> In (dname, None) (fs_entries files).
Proof.
  intros files Hf f dname Hin Hp. apply fs_entries_has; [assumption | |apply writes_in; right; eauto].
  intros d1 d2 Hd _. destruct (Hf _ Hd). eapply parents_end, Hp.
Qed.
Print Assumptions fs_entries_parents_present.

Theorem fs_entries_only : forall files k v, In (k, v) (fs_entries files) ->
  (exists d, v = Some d /\ In (k, d) files)
  \/ (v = None /\ exists f, In f files /\ In k (parents (fst f))).
Proof. intros files k v H. now apply fs_entries_writes, writes_in in H. Qed.
Print Assumptions fs_entries_only.

Example fs_nontrivial :
  parents [97; 47; 98; 47; 99] = [[97; 47; 98; 47]; [97; 47]]
  /\ fs_entries [([97; 47; 98; 47; 99], [1]); ([97; 46; 98], [2]); ([97; 47; 100], [3])]
     = [([97; 47], None); ([97; 46; 98], Some [2]); ([97; 47; 98; 47], None); ([97; 47; 100], Some [3]);
        ([97; 47; 98; 47; 99], Some [1])].
Proof. split; vm_compute; reflexivity. Qed.

(* Any list of patterns, each written bare (ASCII without white space, not
   starting with a string quote), back-quoted (no back quote, no CR) or double-quoted with \ and the
   quote escaped (ASCII without newline), joined by spaces, is split and
   unquoted back into exactly that list. *)
Theorem args_roundtrip : forall qs : list (style * str),
  Forall (fun q => style_ok (fst q) (snd q) = true) qs ->
  parse_args (render_args qs) = Some (map snd qs).
Proof.
  intros qs H. unfold parse_args, split_args, render_args. fold field.
  rewrite split_args_render by (assumption || lia). now apply unquote_fields_render.
Qed.
Print Assumptions args_roundtrip.

Example args_nontrivial :
  Forall (fun q => style_ok (fst q) (snd q) = true)
         [(Double, [97; 32; 34; 92; 42]); (Back, [34; 32; 92; 195; 169]); (Bare, [97; 108; 108; 58; 42; 46; 116; 120; 116]); (Double, [])]
  /\ parse_comment ([47; 47; 103; 111; 58; 101; 109; 98; 101; 100; 32] ++
        render_args [(Double, [97; 32; 34; 92; 42]); (Back, [34; 32; 92; 195; 169]); (Bare, [97; 108; 108; 58; 42; 46; 116; 120; 116]); (Double, [])])
     = DPats [[97; 32; 34; 92; 42]; [34; 32; 92; 195; 169]; [97; 108; 108; 58; 42; 46; 116; 120; 116]; []].
Proof. split; [repeat constructor | vm_compute; reflexivity]. Qed.

(* LoadDirectives: the verdict is per file: the package is rejected iff some file, looked at
   alone, is rejected (no state is carried from one file to the next). *)
Theorem load_verdict_is_per_file : forall root fs,
  (exists e, load_directives root fs = Err e) <-> Exists (fun f => exists e, load_file root f [] = Err e) fs.
Proof. intros root fs. unfold load_directives. apply fold_res_err_iff, load_file_indep. Qed.
Print Assumptions load_verdict_is_per_file.

(* ... so one file with a //go:embed directive and without the import of embed makes
   LoadDirectives fail, whatever the other files are and in whatever order they come *)
Theorem directive_without_import_rejected : forall root fs f,
  In f fs -> file_uses f = true -> gf_embed f = false -> exists e, load_directives root fs = Err e.
Proof.
  intros root fs f Hin Hu E. apply load_verdict_is_per_file, Exists_exists.
  exists f. split; [assumption | now apply load_file_noimport].
Qed.
Print Assumptions directive_without_import_rejected.

(* ... and a package is accepted only if every file that uses a directive imports embed
   ITSELF: an import in another file of the package does not count. *)
Theorem directive_needs_own_import : forall root fs m,
  load_directives root fs = Ok m ->
  Forall (fun f => file_uses f = true -> gf_embed f = true) fs.
Proof.
  intros root fs m H. apply Forall_forall. intros f Hin Hu.
  destruct (gf_embed f) eqn:E; [reflexivity|].
  destruct (directive_without_import_rejected root fs f Hin Hu E) as [e HE]. congruence.
Qed.
Print Assumptions directive_needs_own_import.

Example load_nontrivial :
  let t := Dir [([97; 46; 116; 120; 116], File [65])] in
  let dir := [47; 47; 103; 111; 58; 101; 109; 98; 101; 100; 32; 97; 46; 116; 120; 116] in   (* //go:embed a.txt *)
  let fa := {| gf_embed := true; gf_decls := [{| vd_doc := [dir]; vd_specs := [{| vs_names := [[120]]; vs_doc := [] |}] |}] |} in
  let fb := {| gf_embed := false; gf_decls := [{| vd_doc := []; vd_specs := [{| vs_names := [[121]]; vs_doc := [dir] |}] |}] |} in
  load_directives t [fa] = Ok [([120], [([97; 46; 116; 120; 116], [65])])]
  /\ file_uses fb = true
  /\ load_directives t [fa; fb] = Err E_NOIMPORT /\ load_directives t [fb; fa] = Err E_NOIMPORT.
Proof. vm_compute. repeat split; reflexivity. Qed.

(* cl/embed.go: every []byte variable has a store of its own, also when several variables
   embed the same file; a write through one store leaves all others unchanged *)
Theorem bytes_stores_distinct : forall vars next, NoDup (map snd (fst (bytes_stores vars next))).
Proof.
  intros vars next. rewrite bytes_stores_ids. apply FinFun.Injective_map_NoDup; [|apply seq_NoDup].
  intros a b H. lia.
Qed.
Print Assumptions bytes_stores_distinct.

Theorem write_isolated : forall heap i j k v, i <> j -> nth j (write_store heap i k v) [] = nth j heap [].
Proof. intros heap i j k v H. unfold write_store. now apply set_nth_other. Qed.
Print Assumptions write_isolated.
