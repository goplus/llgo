(* C09 - lemmas behind Props.v.  The central result is check_flat_all: every flat struct of
   well-formed scalars that ends by 16 passes check_flat (GetTypeInfo's classes are the psABI
   classes, and the coerced parts cover every leaf).  It is proved by cutting the struct at offset 8
   (split8) and checking each eightbyte on its own (eightbytes_ok, two small sweeps);
   classify_ok carries it over to every struct laid out like its flattening.  The rest: leaf
   counts, byte images through the coerced parts, C strings, witnesses. *)
From LLGoV Require Import Lib.Common C09.Model.
Local Open Scope N_scope.

Lemma align_up_ge x a : x <= align_up x a.
Proof.
  unfold align_up. destruct (a =? 0) eqn:E; [lia|]. apply N.eqb_neq in E.
  pose proof (N.div_mod (x + a - 1) a E) as D.
  pose proof (N.mod_upper_bound (x + a - 1) a E) as U.
  rewrite (N.mul_comm a) in D. lia.
Qed.

Lemma end_from_ge cur l : cur <= end_from cur l.
Proof.
  revert cur; induction l as [|[s a] r IH]; intros cur; cbn; [lia|].
  specialize (IH (align_up cur a + s)). pose proof (align_up_ge cur a). lia.
Qed.

Definition sa_of (s : scalar) : sa := (ssz s, ssz s).

Lemma lay_flat_struct l : map lay (map CS l) = map sa_of l.
Proof. rewrite map_map. reflexivity. Qed.

Lemma csize_flat_struct l :
  csize (flat_struct l) = align_up (end_from 0 (map sa_of l)) (max_align (map sa_of l)).
Proof. unfold csize, flat_struct. cbn [lay fst]. now rewrite lay_flat_struct. Qed.

Lemma calign_flat_struct l : calign (flat_struct l) = max_align (map sa_of l).
Proof. unfold calign, flat_struct. cbn [lay snd]. now rewrite lay_flat_struct. Qed.

(* the leaves of a flat struct, laid out from cur *)
Fixpoint leaves (cur : N) (l : list scalar) : list (N * scalar) :=
  match l with
  | [] => []
  | s :: r => let o := align_up cur (ssz s) in (o, s) :: leaves (o + ssz s) r
  end.

Lemma flat_flat_struct l : flat 0 (flat_struct l) = leaves 0 l.
Proof.
  unfold flat_struct. cbn [flat]. generalize 0 at 2 3 as cur.
  induction l as [|s r IH]; intros cur; cbn; [reflexivity|]. now rewrite IH.
Qed.

Lemma elems_flat_struct l : elems (flat_struct l) = l.
Proof.
  unfold elems. rewrite flat_flat_struct. generalize 0 as cur.
  induction l as [|s r IH]; intros cur; cbn; [reflexivity|]. now rewrite IH.
Qed.

(* scalars have size and alignment 1, 2, 4 or 8 *)

Definition sizes : list N := [1; 2; 4; 8].

Lemma wf_scalar_in s : wf_scalar s = true -> In s all_scalars.
Proof.
  destruct s as [w| | |]; cbn; intros W; auto 10.
  repeat (apply orb_true_iff in W as [W|W]); apply N.eqb_eq in W; subst w; auto 10.
Qed.

Lemma wf_scalar_size s : wf_scalar s = true -> In (ssz s) sizes.
Proof. intros W. apply wf_scalar_in in W. repeat destruct W as [<-|W]; cbn; auto 10. Qed.

Lemma wf_scalar_pos s : wf_scalar s = true -> 1 <= ssz s.
Proof. intros W. destruct (wf_scalar_size s W) as [<-|[<-|[<-|[<-|[]]]]]; lia. Qed.

Lemma max_align_sizes l : Forall (fun s => wf_scalar s = true) l -> In (max_align (map sa_of l)) sizes.
Proof.
  induction 1 as [|s r W _ IH]; cbn [map max_align fold_right sa_of snd]; [now left|].
  fold (max_align (map sa_of r)).
  destruct (wf_scalar_size s W) as [<-|[<-|[<-|[<-|[]]]]], IH as [<-|[<-|[<-|[<-|[]]]]]; cbn; auto.
Qed.

(* lia on align_up with a concrete alignment needs division by a numeral: for the four lemmas
   of this section only, the hook is put back after it *)
Local Ltac Zify.zify_post_hook ::= Z.div_mod_to_equations.

Section Sizes.
Variable a : N.
Hypothesis A : In a sizes.

(* no scalar straddles offset 8 *)
Lemma align_up_no_straddle x : x <= 8 -> align_up x a + a <= 8 \/ align_up x a = 8.
Proof. destruct A as [<-|[<-|[<-|[<-|[]]]]]; unfold align_up; cbn [N.eqb]; lia. Qed.

Lemma align_up_shift8 x : align_up (8 + x) a = 8 + align_up x a.
Proof. destruct A as [<-|[<-|[<-|[<-|[]]]]]; unfold align_up; cbn [N.eqb]; lia. Qed.

(* the running offset of find_index and sub_type is the end of the scalar *)
Lemma align_up_next x : align_up (x + a) a = align_up x a + a.
Proof. destruct A as [<-|[<-|[<-|[<-|[]]]]]; unfold align_up; cbn [N.eqb]; lia. Qed.

(* what lies at 8 after e still lies at 8 after a later x and for a coarser alignment k *)
Lemma align_up_second k e x : In k sizes -> a <= k -> e <= x <= 8 -> align_up e a = 8 -> align_up x k = 8.
Proof.
  destruct A as [<-|[<-|[<-|[<-|[]]]]]; intros [<-|[<-|[<-|[<-|[]]]]]; unfold align_up; cbn [N.eqb]; lia.
Qed.
End Sizes.
Local Ltac Zify.zify_post_hook ::= idtac.

Lemma end_from_length l : Forall (fun s => wf_scalar s = true) l ->
  forall cur, cur + N.of_nat (length l) <= end_from cur (map sa_of l).
Proof.
  induction 1 as [|s r W _ IH]; intros cur; cbn [map end_from length sa_of]; [lia|].
  specialize (IH (align_up cur (ssz s) + ssz s)).
  pose proof (align_up_ge cur (ssz s)). pose proof (wf_scalar_pos s W). lia.
Qed.

Lemma end_from_shift8 l : Forall (fun s => wf_scalar s = true) l -> forall cur,
  end_from (8 + cur) (map sa_of l) = 8 + end_from cur (map sa_of l).
Proof.
  induction 1 as [|s r W _ IH]; intros cur; cbn [map end_from sa_of]; [reflexivity|].
  rewrite align_up_shift8, <- N.add_assoc by now apply wf_scalar_size. apply IH.
Qed.

Lemma enum_nil fuel cur : In [] (enum fuel cur).
Proof. destruct fuel; cbn; auto. Qed.

Lemma enum_complete l : Forall (fun s => wf_scalar s = true) l ->
  forall fuel cur, (length l <= fuel)%nat -> end_from cur (map sa_of l) <= 16 -> In l (enum fuel cur).
Proof.
  induction 1 as [|s r W _ IH]; intros fuel cur L E; [apply enum_nil|].
  destruct fuel as [|k]; [cbn in L; lia|].
  cbn [enum]. right. apply in_flat_map. exists s. split; [now apply wf_scalar_in|].
  cbn [map end_from sa_of] in E.
  pose proof (end_from_ge (align_up cur (ssz s) + ssz s) (map sa_of r)) as G.
  assert (C : align_up cur (ssz s) + ssz s <=? 16 = true) by (apply N.leb_le; lia).
  rewrite C. apply in_map. apply IH; [cbn in L; lia|exact E].
Qed.

Lemma enum_sound fuel : forall cur l, cur <= 16 -> In l (enum fuel cur) ->
  Forall (fun s => wf_scalar s = true) l /\ end_from cur (map sa_of l) <= 16.
Proof.
  induction fuel as [|k IH]; intros cur l C; cbn [enum]; intros [<-|I]; try (now split).
  apply in_flat_map in I as (s & Is & I).
  destruct (_ <=? 16) eqn:E; [|destruct I]. apply N.leb_le in E.
  apply in_map_iff in I as (r & <- & I). destruct (IH _ r E I) as [W E'].
  split; [constructor; [|exact W]|exact E'].
  repeat destruct Is as [<-|Is]; try reflexivity. destruct Is.
Qed.

(* [enum] has the bound 16 built in, so the lists that fit into one eightbyte are enumerated as
   those that end by 16 when laid out from 8: by end_from_shift8 the same lists as those that
   end by 8 when laid out from 0, which is how check_flat lays them out *)
Lemma in_enum8 l : Forall (fun s => wf_scalar s = true) l -> end_from 8 (map sa_of l) <= 16 -> In l (enum 8 8).
Proof. intros W E. pose proof (end_from_length l W 8). apply enum_complete; auto; lia. Qed.

Lemma cty_ind' (P : cty -> Prop) :
  (forall s, P (CS s)) -> (forall n e, P e -> P (CArr n e)) -> (forall fs, Forall P fs -> P (CStruct fs)) ->
  forall t, P t.
Proof.
  intros HS HA HT. fix IH 1. intros [s | n e | fs].
  - apply HS.
  - apply HA. apply IH.
  - apply HT. induction fs as [|f r IHr]; constructor; [apply IH|exact IHr].
Qed.

Lemma rep_flat_length f L : (forall b, length (f b) = L) ->
  forall k base stride, length (rep_flat f base stride k) = (k * L)%nat.
Proof.
  intros H. induction k as [|k IH]; intros base stride; cbn; [reflexivity|].
  rewrite app_length, H, IH. reflexivity.
Qed.

(* elementTypesCount of an array is its length times the count of its element, of a struct the
   sum over its fields - and that is exactly the number of leaves of the flattening *)
Lemma flat_length : forall t base, N.of_nat (length (flat base t)) = ecount t.
Proof.
  induction t as [s|n e IH|fs IH] using cty_ind'; intros base; cbn [flat ecount].
  - reflexivity.
  - rewrite (rep_flat_length (fun b => flat b e) (N.to_nat (ecount e))).
    + rewrite Nat2N.inj_mul, !N2Nat.id. reflexivity.
    + intros b. rewrite <- (IH b). now rewrite Nat2N.id.
  - generalize 0 at 1 as cur. induction IH as [|f r Hf _ IHr]; intros cur; cbn [fold_right]; [reflexivity|].
    rewrite app_length, Nat2N.inj_add, Hf. f_equal. apply IHr.
Qed.

Lemma ecount_length t : ecount t = N.of_nat (length (elems t)).
Proof. unfold elems. rewrite map_length. symmetry. apply flat_length. Qed.

Lemma ecount_array n e : ecount (CArr n e) = n * ecount e.
Proof. reflexivity. Qed.

(* A flat struct laid out from cur <= 8 splits at offset 8 into l1 and l2.  When l2 is empty
   there is one eightbyte and nothing more to say.  i is the index find_index has counted up to
   when it reaches l; it occurs in the last line only. *)
Lemma split8 l : Forall (fun s => wf_scalar s = true) l -> forall cur i, cur <= 8 ->
  exists l1 l2,
    l = l1 ++ l2 /\
    end_from cur (map sa_of l1) <= 8 /\                            (* l1 ends by 8: no scalar straddles it *)
    leaves cur l = leaves cur l1 ++ leaves 8 l2 /\                 (* l2 is laid out as if from 8 *)
    forall h r2, l2 = h :: r2 ->
      align_up (end_from cur (map sa_of l1)) (ssz h) = 8 /\        (* its first scalar lies at 8 exactly *)
      end_from cur (map sa_of l) = end_from 8 (map sa_of l2) /\
      find_index l i cur = i + N.of_nat (length l1).               (* GetTypeInfo cuts at the same place *)
Proof.
  assert (A8 : forall s, wf_scalar s = true -> align_up 8 (ssz s) = 8).
  { intros s W. destruct (wf_scalar_size s W) as [<-|[<-|[<-|[<-|[]]]]]; reflexivity. }
  induction 1 as [|s r W Wr IH]; intros cur i C.
  { exists [], []. cbn. refine (conj eq_refl (conj C (conj eq_refl _))). discriminate. }
  pose proof (wf_scalar_size s W) as A.
  destruct (align_up_no_straddle _ A cur C) as [E|E]; [apply N.lt_eq_cases in E as [E|E]|].
  - (* s ends before 8 *)
    destruct (IH (align_up cur (ssz s) + ssz s) (i + 1) ltac:(lia)) as (l1 & l2 & -> & E1 & E2 & E3).
    exists (s :: l1), l2. cbn [app map end_from sa_of leaves find_index]. rewrite E2.
    refine (conj eq_refl (conj E1 (conj eq_refl _))). intros h r2 EL.
    destruct (E3 h r2 EL) as (A1 & A2 & A3). refine (conj A1 (conj A2 _)).
    rewrite align_up_next by exact A. apply N.ltb_lt in E. rewrite E, A3. cbn [length]. lia.
  - (* s ends at 8 *)
    exists [s], r. cbn [app map end_from sa_of leaves find_index length]. rewrite E.
    refine (conj eq_refl (conj (N.le_refl 8) (conj eq_refl _))). intros h r2 ->.
    inversion Wr; subst. refine (conj (A8 h _) (conj eq_refl _)); [assumption|].
    rewrite align_up_next, E by exact A. reflexivity.
  - (* s lies at 8 *)
    exists [], (s :: r). cbn [app map end_from sa_of leaves find_index length]. rewrite E, (A8 s W).
    refine (conj eq_refl (conj C (conj eq_refl _))). intros h r2 EL. injection EL as <- _.
    refine (conj E (conj eq_refl _)). rewrite align_up_next, E by exact A.
    destruct A as [<-|[<-|[<-|[<-|[]]]]]; cbn; lia.
Qed.

Lemma fold_class_other fl j k c : j <> k -> forallb (fun x => fst x / 8 =? j) fl = true ->
  fold_left (fun c x => if fst x / 8 =? k then merge c (scls (snd x)) else c) fl c = c.
Proof.
  intros N. induction fl as [|x r IH]; cbn; [reflexivity|]. intros F.
  apply andb_true_iff in F as [F1 F2]. apply N.eqb_eq in F1. apply N.eqb_neq in N.
  rewrite F1, N. now apply IH.
Qed.

(* the class of an eightbyte depends on the leaves inside it only *)
Lemma eightbyte_class_app fl1 fl2 j k : j <> k ->
  forallb (fun x => fst x / 8 =? j) fl1 = true -> forallb (fun x => fst x / 8 =? k) fl2 = true ->
  eightbyte_class (fl1 ++ fl2) j = eightbyte_class fl1 j /\
  eightbyte_class (fl1 ++ fl2) k = eightbyte_class fl2 k.
Proof.
  intros N F1 F2. unfold eightbyte_class. rewrite !fold_left_app. split.
  - apply (fold_class_other fl2 k j); [congruence|exact F2].
  - now rewrite (fold_class_other fl1 j k).
Qed.

(* GetTypeInfo on two eightbytes: each side is coerced on its own; with two elements the
   special case gives the same *)
Lemma gti_core_two sz al l1 l2 : 8 < sz <= 16 -> l1 <> [] -> l2 <> [] ->
  find_index (l1 ++ l2) 0 0 = N.of_nat (length l1) ->
  gti_core sz al (N.of_nat (length (l1 ++ l2))) (l1 ++ l2) = TW2 (sub_type al l1 true) (sub_type al l2 false).
Proof.
  intros [S1 S2] N1 N2 FI. unfold gti_core. rewrite FI, Nat2N.id.
  rewrite firstn_app_exact, skipn_app_exact.
  destruct l1 as [|a l1]; [congruence|]. destruct l2 as [|b l2]; [congruence|].
  rewrite app_length. cbn [length].
  replace (_ <? 2) with false by (symmetry; apply N.ltb_ge; lia).
  replace (16 <? sz) with false by (symmetry; apply N.ltb_ge; lia).
  replace (sz <=? 8) with false by (symmetry; apply N.leb_gt; lia).
  destruct (_ =? 2) eqn:T; [|reflexivity]. apply N.eqb_eq in T.
  destruct l1, l2; cbn [length] in T; try lia. cbn [app]. destruct (_ || _); now destruct a, b.
Qed.

Lemma kcls_not_memory c : cls_eqb Memory (kcls c) = false.
Proof. destruct c as [[]| |]; reflexivity. Qed.

Lemma cls_eqb_eq a b : cls_eqb a b = true -> a = b.
Proof. destruct a, b; cbn; try discriminate; auto. Qed.

(* what is evaluated for the scalars l of the first eightbyte when there is a second: class
   and transported range of the coerced part c, and that its allocation size lies between the
   end of l and 8 *)
Definition eightbyte0_ok (al : N) (l : list scalar) : bool :=
  let c := sub_type al l true in let fl := leaves 0 l in
  forallb (fun x => fst x / 8 =? 0) fl && cls_eqb (eightbyte_class fl 0) (kcls c) &&
  forallb (fun x => in_range (0, kstore c) (fst x) (ssz (snd x))) fl &&
  (end_from 0 (map sa_of l) <=? kalloc c) && (kalloc c <=? 8) && (kstore c <=? 8).

(* the same for the scalars l of the second eightbyte in a struct of alignment al.  The
   second part is loaded from the allocation size of the first, aligned up to kalign c: the
   last two conditions (kalign c is 1, 2, 4 or 8 and not below the alignment of the first
   scalar of l, which lies at 8) make that offset 8, by align_up_second *)
Definition eightbyte1_ok (al : N) (l : list scalar) : bool :=
  let c := sub_type al l false in let fl := leaves 8 l in
  let sz := align_up (end_from 8 (map sa_of l)) al in
  forallb (fun x => fst x / 8 =? 1) fl && cls_eqb (eightbyte_class fl 1) (kcls c) &&
  forallb (fun x => in_range (8, kstore c) (fst x) (ssz (snd x))) fl &&
  (8 + kstore c <=? sz) && (8 <? sz) && (sz <=? 16) &&
  (ssz (hd SP l) <=? kalign c) && existsb (N.eqb (kalign c)) sizes.

Lemma sweep_one_eightbyte : forallb check_flat (enum 8 8) = true.
Proof. vm_compute. reflexivity. Qed.

Lemma sweep_two_eightbytes :
  forallb (fun al => forallb (fun l => eightbyte0_ok al l && eightbyte1_ok al l) (tl (enum 8 8))) sizes = true.
Proof. vm_compute. reflexivity. Qed.

Lemma eightbytes_ok al l :
  In al sizes -> Forall (fun s => wf_scalar s = true) l -> l <> [] -> end_from 8 (map sa_of l) <= 16 ->
  eightbyte0_ok al l = true /\ eightbyte1_ok al l = true.
Proof.
  intros AL W NE E. pose proof sweep_two_eightbytes as SW. rewrite forallb_forall in SW.
  specialize (SW al AL). rewrite forallb_forall in SW. apply andb_true_iff, SW.
  destruct (in_enum8 l W E) as [<-|I]; [congruence|exact I].
Qed.

Lemma check_flat_cores l : l <> [] ->
  let sz := align_up (end_from 0 (map sa_of l)) (max_align (map sa_of l)) in
  let ti := gti_core sz (max_align (map sa_of l)) (N.of_nat (length l)) l in
  check_flat l =
    cls_list_eqb (classes sz l ti) (sysv_core sz (leaves 0 l)) && covers_core sz (leaves 0 l) (ranges sz ti).
Proof.
  intros NE. unfold check_flat, covers, gti, sysv.
  rewrite ecount_length, elems_flat_struct, flat_flat_struct, csize_flat_struct, calign_flat_struct.
  now destruct l.
Qed.

Lemma check_flat_two al l1 l2 :
  l1 <> [] -> l2 <> [] -> eightbyte0_ok al l1 = true -> eightbyte1_ok al l2 = true ->
  In (ssz (hd SP l2)) sizes -> align_up (end_from 0 (map sa_of l1)) (ssz (hd SP l2)) = 8 ->
  find_index (l1 ++ l2) 0 0 = N.of_nat (length l1) ->
  let sz := align_up (end_from 8 (map sa_of l2)) al in
  let ti := gti_core sz al (N.of_nat (length (l1 ++ l2))) (l1 ++ l2) in
  cls_list_eqb (classes sz (l1 ++ l2) ti) (sysv_core sz (leaves 0 l1 ++ leaves 8 l2)) &&
  covers_core sz (leaves 0 l1 ++ leaves 8 l2) (ranges sz ti) = true.
Proof.
  intros N1 N2 H1 H2 SH AH FI sz ti. unfold eightbyte0_ok in H1. unfold eightbyte1_ok in H2. fold sz in H2.
  set (c1 := sub_type al l1 true) in *. set (c2 := sub_type al l2 false) in *.
  rewrite !andb_true_iff, !N.leb_le in H1. destruct H1 as (((((F1 & C1) & R1) & K1) & K2) & K3).
  rewrite !andb_true_iff, !N.leb_le, N.ltb_lt in H2.
  destruct H2 as (((((((F2 & C2) & R2) & S1) & S2) & S3) & A1) & A2).
  apply cls_eqb_eq in C1, C2.
  apply existsb_exists in A2 as (k & A2 & E). apply N.eqb_eq in E. subst k.
  subst ti. rewrite gti_core_two by (auto; lia). fold c1 c2. cbn [classes ranges].
  (* the second part is loaded from offset 8 *)
  rewrite (align_up_second _ SH _ _ _ A2 A1 (conj K1 K2) AH).
  destruct (eightbyte_class_app (leaves 0 l1) (leaves 8 l2) 0 1 ltac:(discriminate) F1 F2) as [B1 B2].
  unfold sysv_core, covers_core.
  replace (16 <? sz) with false by (symmetry; apply N.ltb_ge; lia).
  replace (sz <=? 8) with false by (symmetry; apply N.leb_gt; lia).
  cbn [map]. rewrite B1, B2, C1, C2. cbn [existsb]. rewrite !kcls_not_memory. cbn [orb].
  unfold cls_list_eqb. rewrite list_eqb_refl by now intros []. rewrite forallb_app.
  cbn [forallb fst snd]. rewrite !andb_true_iff, !N.leb_le. rewrite forallb_forall in R1, R2.
  repeat split; try lia; apply forallb_forall; intros x I.
  - now rewrite (R1 x I).
  - now rewrite (R2 x I), orb_true_r.
Qed.

Theorem check_flat_all l :
  Forall (fun s => wf_scalar s = true) l -> end_from 0 (map sa_of l) <= 16 -> check_flat l = true.
Proof.
  intros W E. destruct (split8 l W 0 0) as (l1 & l2 & -> & E1 & FL & S); [lia|].
  apply Forall_app in W as W12. destruct W12 as [W1 W2].
  assert (E8 : end_from 8 (map sa_of l1) <= 16).
  { rewrite <- (N.add_0_r 8), end_from_shift8 by exact W1. lia. }
  destruct l2 as [|h r2].
  { rewrite app_nil_r. pose proof sweep_one_eightbyte as SW. rewrite forallb_forall in SW.
    now apply SW, in_enum8. }
  destruct (S h r2 eq_refl) as (AH & EE & FI).
  assert (SH : In (ssz h) sizes) by (inversion W2; now apply wf_scalar_size).
  assert (N1 : l1 <> []).
  { intros ->. destruct SH as [X|[X|[X|[X|[]]]]]; rewrite <- X in AH; discriminate. }
  assert (N2 : h :: r2 <> []) by discriminate.
  rewrite check_flat_cores by now destruct l1.
  pose proof (max_align_sizes _ W) as AL. set (al := max_align (map sa_of (l1 ++ h :: r2))) in *.
  destruct (eightbytes_ok al l1 AL W1 N1 E8) as [H1 _].
  destruct (eightbytes_ok al (h :: r2) AL W2 N2 ltac:(lia)) as [_ H2].
  rewrite EE, FL. now apply (check_flat_two al l1 (h :: r2)).
Qed.

Lemma sweep : forallb check_flat (enum 16 0) = true.
Proof.
  apply forallb_forall. intros l I. destruct (enum_sound 16 0 l) as [W E]; [lia|exact I|].
  now apply check_flat_all.
Qed.

Lemma scalar_eqb_eq a b : scalar_eqb a b = true -> a = b.
Proof. destruct a, b; cbn; try discriminate; auto. intros E. apply N.eqb_eq in E. now subst. Qed.

Lemma pair_eqb_eq x y : pair_eqb x y = true -> x = y.
Proof.
  destruct x as [a b], y as [c d]. unfold pair_eqb. cbn. intros E.
  apply andb_true_iff in E as [E1 E2]. apply N.eqb_eq in E1. apply scalar_eqb_eq in E2. now subst.
Qed.

Lemma flat_equiv_spec t : flat_equiv t = true ->
  let u := flat_struct (elems t) in
  csize t = csize u /\ calign t = calign u /\ flat 0 t = flat 0 u.
Proof.
  unfold flat_equiv. intros E. apply andb_true_iff in E as [E E3]. apply andb_true_iff in E as [E1 E2].
  apply N.eqb_eq in E1, E2. apply (list_eqb_eq pair_eqb pair_eqb_eq) in E3. auto.
Qed.

(* a struct laid out like its flattening is indistinguishable from it *)
Lemma flat_equiv_transfer t : flat_equiv t = true ->
  let u := flat_struct (elems t) in
  gti t = gti u /\ sysv t = sysv u /\ covers t = covers u /\ elems t = elems u /\ csize t = csize u.
Proof.
  intros E u. destruct (flat_equiv_spec t E) as [E1 [E2 E3]]. fold u in E1, E2, E3.
  assert (EE : elems t = elems u) by (unfold elems; now rewrite E3).
  assert (EC : ecount t = ecount u) by (rewrite !ecount_length; now rewrite EE).
  unfold gti, sysv, covers, gti. rewrite <- EE, <- EC, <- E1, <- E2, <- E3. auto.
Qed.

Lemma classify_ok t :
  forallb wf_scalar (elems t) = true -> flat_equiv t = true -> elems t <> [] -> csize t <= 16 ->
  classes (csize t) (elems t) (gti t) = sysv t /\ covers t = true.
Proof.
  intros W E NE S.
  destruct (flat_equiv_transfer t E) as [G [V [C [EE ES]]]].
  assert (WF : Forall (fun s => wf_scalar s = true) (elems t)) by (apply Forall_forall; rewrite forallb_forall in W; exact W).
  assert (CK : check_flat (elems t) = true).
  { apply check_flat_all; [exact WF|]. rewrite ES, csize_flat_struct in S.
    eapply N.le_trans; [apply align_up_ge|exact S]. }
  unfold check_flat in CK. destruct (elems t) as [|s0 r0] eqn:EL; [congruence|].
  rewrite <- EL in *. apply andb_true_iff in CK as [CK1 CK2].
  apply (list_eqb_eq cls_eqb cls_eqb_eq) in CK1.
  set (u := flat_struct (elems t)) in *.
  rewrite G, V, C, ES, EE. split; [exact CK1|exact CK2].
Qed.

Lemma gti_memory t : (2 <= length (elems t))%nat -> (gti t = TPtr <-> 16 < csize t).
Proof.
  unfold gti, gti_core. intros L. rewrite ecount_length.
  assert (N2 : N.of_nat (length (elems t)) <? 2 = false) by (apply N.ltb_ge; lia).
  rewrite N2. destruct (16 <? csize t) eqn:E.
  - apply N.ltb_lt in E. tauto.
  - apply N.ltb_ge in E. split; [|lia].
    destruct (csize t <=? 8); [discriminate|].
    destruct (N.of_nat (length (elems t)) =? 2); [|discriminate].
    destruct (elems t) as [|a [|b r]]; try discriminate.
    destruct ((ssz a =? 8) || (ssz b =? 8)); discriminate.
Qed.

Lemma sysv_memory t : 16 < csize t -> sysv t = [Memory].
Proof. unfold sysv, sysv_core. intros L. apply N.ltb_lt in L. now rewrite L. Qed.

Lemma nth_skipn {A} n : forall (l : list A) i d, nth i (skipn n l) d = nth (n + i) l d.
Proof.
  induction n as [|n IH]; intros l i d; [reflexivity|].
  destruct l as [|x r]; [cbn; now destruct i|]. cbn. apply IH.
Qed.

Lemma write_length o bs base :
  (N.to_nat o + length bs <= length base)%nat -> length (write o bs base) = length base.
Proof.
  intros L. unfold write. rewrite !app_length, firstn_length, skipn_length. lia.
Qed.

Lemma nth_write o bs base i :
  (N.to_nat o + length bs <= length base)%nat ->
  nth i (write o bs base) 0 =
    if (N.to_nat o <=? i)%nat && (i <? N.to_nat o + length bs)%nat then nth (i - N.to_nat o) bs 0 else nth i base 0.
Proof.
  intros L. unfold write. set (k := N.to_nat o) in *.
  destruct (k <=? i)%nat eqn:E1; cbn [andb].
  - apply Nat.leb_le in E1.
    rewrite app_nth2 by (rewrite firstn_length; lia). rewrite firstn_length, Nat.min_l by lia.
    destruct (i <? k + length bs)%nat eqn:E2.
    + apply Nat.ltb_lt in E2. rewrite app_nth1 by lia. reflexivity.
    + apply Nat.ltb_ge in E2. rewrite app_nth2 by lia. rewrite nth_skipn. f_equal. lia.
  - apply Nat.leb_gt in E1. rewrite app_nth1 by (rewrite firstn_length; lia).
    now rewrite nth_firstn_lt by lia.
Qed.

Lemma slice_length img r :
  (N.to_nat (fst r) + N.to_nat (snd r) <= length img)%nat -> length (slice img r) = N.to_nat (snd r).
Proof. intros L. unfold slice. rewrite firstn_length, skipn_length. lia. Qed.

Lemma nth_slice img r j :
  (j < N.to_nat (snd r))%nat -> nth j (slice img r) 0 = nth (N.to_nat (fst r) + j) img 0.
Proof. intros L. unfold slice. rewrite nth_firstn_lt by exact L. apply nth_skipn. Qed.

Definition in_r (r : N * N) (i : nat) : Prop := (N.to_nat (fst r) <= i < N.to_nat (fst r) + N.to_nat (snd r))%nat.

(* one part written back: its bytes are those of img, the others are as before *)
Lemma nth_write_slice img base r i :
  length base = length img -> (N.to_nat (fst r) + N.to_nat (snd r) <= length img)%nat ->
  in_r r i \/ nth i base 0 = nth i img 0 -> nth i (write (fst r) (slice img r) base) 0 = nth i img 0.
Proof.
  intros LB F H. pose proof (slice_length img r F) as LS.
  rewrite nth_write, LS by (rewrite LS, LB; exact F).
  destruct (_ && _) eqn:IN.
  - apply andb_true_iff in IN as [I1 I2]. apply Nat.leb_le in I1. apply Nat.ltb_lt in I2.
    rewrite nth_slice by lia. f_equal. lia.
  - destruct H as [H|H]; [exfalso|exact H]. unfold in_r in H.
    apply andb_false_iff in IN as [I|I]; [apply Nat.leb_gt in I|apply Nat.ltb_ge in I]; lia.
Qed.

(* unpack (pack img) agrees with img on every transported byte, whatever was there before *)
Lemma roundtrip_ranges rs img : forall base,
  length base = length img ->
  Forall (fun r => (N.to_nat (fst r) + N.to_nat (snd r) <= length img)%nat) rs ->
  let out := unpack rs (pack rs img) base in
  length out = length img /\
  forall i, (Exists (fun r => in_r r i) rs \/ nth i base 0 = nth i img 0) -> nth i out 0 = nth i img 0.
Proof.
  induction rs as [|r rs IH]; intros base LB F; cbn [pack map unpack].
  - split; [exact LB|]. intros i [H|H]; [inversion H|exact H].
  - inversion F as [|? ? Fr Frs]; subst.
    assert (LW : length (write (fst r) (slice img r) base) = length img).
    { rewrite write_length; [exact LB|]. rewrite slice_length, LB by exact Fr. exact Fr. }
    destruct (IH _ LW Frs) as [L1 A]. split; [exact L1|]. intros i H. apply A.
    destruct H as [H|H]; [inversion H as [? ? Hr|? ? Hrs]; subst; [|now left]|];
      right; apply nth_write_slice; auto.
Qed.

(* strlen + copy stops at the first NUL *)
Lemma from_cstr_nul a m : nul_free a = true -> from_cstr (a ++ 0 :: m) = a.
Proof.
  induction a as [|x r IH]; cbn; intros NF; [reflexivity|].
  apply andb_true_iff in NF as [B NF]. destruct (x =? 0); [discriminate|]. now rewrite IH.
Qed.

(* covers + roundtrip: every byte of every leaf survives pack / unpack *)
Lemma covers_roundtrip sz fl rs img base :
  covers_core sz fl rs = true -> length img = N.to_nat sz -> length base = length img ->
  forall o s i, In (o, s) fl -> o <= i < o + ssz s ->
  nth (N.to_nat i) (unpack rs (pack rs img) base) 0 = nth (N.to_nat i) img 0.
Proof.
  intros C LI LB o s i I R. unfold covers_core in C. apply andb_true_iff in C as [C1 C2].
  rewrite forallb_forall in C1, C2.
  assert (F : Forall (fun r => (N.to_nat (fst r) + N.to_nat (snd r) <= length img)%nat) rs).
  { apply Forall_forall. intros r Ir. specialize (C2 r Ir). apply N.leb_le in C2. rewrite LI. lia. }
  destruct (roundtrip_ranges rs img base LB F) as [_ A]. apply A. left.
  specialize (C1 (o, s) I). apply existsb_exists in C1 as [r [Ir Hr]].
  apply Exists_exists. exists r. split; [exact Ir|].
  unfold in_range in Hr. cbn [fst snd] in Hr. apply andb_true_iff in Hr as [H1 H2].
  apply N.leb_le in H1, H2. unfold in_r. lia.
Qed.

Definition w_tail := CStruct [CStruct [CS (SI 4); CS (SI 1)]; CS (SI 1); CS (SI 4)].
Definition w_tail_float := CStruct [CStruct [CS (SI 4); CS (SI 1)]; CS (SI 1); CS SF32].
Definition w_two_i64 := CStruct [CS (SI 8); CS (SI 8)].
Definition w_three_floats := CStruct [CS SF32; CS SF32; CS SF32].

Lemma tail_witness :
  forallb wf_scalar (elems w_tail) = true /\ csize w_tail = 16 /\ flat_equiv w_tail = false /\
  gti w_tail = TW2 (KInt 64) (KScalar (SI 4)) /\ In (12, SI 4) (flat 0 w_tail) /\ leaves_covered w_tail = false /\
  classes (csize w_tail_float) (elems w_tail_float) (gti w_tail_float) = [Integer; Sse] /\
  sysv w_tail_float = [Integer; Integer].
Proof. repeat split; cbn; auto 10. Qed.

Lemma split_witness :
  flat_equiv w_two_i64 = true /\ covers w_two_i64 = true /\ sysv w_two_i64 = [Integer; Integer] /\
  psabi_in_regs (sysv w_two_i64) (6 - 5) 8 = false /\ seq_any_reg (sysv w_two_i64) (6 - 5) 8 = true /\
  split_mismatch w_two_i64 5 0 = true /\
  flat_equiv w_three_floats = true /\ gti w_three_floats = TW2 KV2F (KScalar SF32) /\
  split_mismatch w_three_floats 0 8 = true.
Proof. repeat split. Qed.
