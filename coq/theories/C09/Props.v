(* C09 - property theorems only (amd64 / System V).  Each is closed by lemmas of Proofs.v
   and followed by Print Assumptions (the driver re-prints them on every run). *)
From LLGoV Require Import Lib.Common C09.Model C09.Proofs.
Local Open Scope N_scope.

(* The classification GetTypeInfo computes (kind and coerced Type1/Type2) has exactly the
   psABI classes of the argument, for EVERY C struct of at most 16 bytes that is laid out
   like the flattening of its element types (no tail padding inside nested structs or array
   elements - flat structs and arrays of scalars always are).  The flattening is cut at offset
   8 (no scalar straddles it) and each eightbyte is checked on its own, by a sweep of the 117 non-empty
   scalar lists that fit into one eightbyte (enum_complete shows none is missing); the sweep
   of all 9583 lists that fit into 16 bytes (Proofs.sweep) follows. *)
Theorem amd64_classify_eq_sysv : forall t,
  forallb wf_scalar (elems t) = true -> flat_equiv t = true -> elems t <> [] -> csize t <= 16 ->
  classes (csize t) (elems t) (gti t) = sysv t.
Proof. intros t W E NE S. exact (proj1 (classify_ok t W E NE S)). Qed.
Print Assumptions amd64_classify_eq_sysv.

(* elementTypesCount (the leaf count GetTypeInfo branches on) is the number of leaves of the
   flattening elementTypes, for every shape: in particular an array - of scalars, of structs,
   of arrays - counts its length times the leaves of its element. *)
Theorem leaf_count_is_flatten_length : forall t, ecount t = N.of_nat (length (elems t)).
Proof. exact ecount_length. Qed.
Print Assumptions leaf_count_is_flatten_length.

Theorem leaf_count_array : forall n e,
  N.of_nat (length (elems (CArr n e))) = n * N.of_nat (length (elems e)).
Proof. intros n e. rewrite <- !ecount_length. reflexivity. Qed.
Print Assumptions leaf_count_array.

(* GetTypeInfo depends on the shape only through its size, its alignment and the flattened
   leaf sequence: nesting (arrays of structs, nested arrays, nested structs) is invisible. *)
Theorem classification_depends_on_leaves_only : forall t u,
  csize t = csize u -> calign t = calign u -> elems t = elems u -> gti t = gti u.
Proof. intros t u S A E. unfold gti. rewrite !ecount_length, S, A, E. reflexivity. Qed.
Print Assumptions classification_depends_on_leaves_only.

Example leaves_only_nontrivial :
  let t := CStruct [CS (SI 8); CArr 1 (CStruct [CS (SI 4); CS (SI 4)])] in
  let u := CStruct [CS (SI 8); CS (SI 4); CS (SI 4)] in
  ecount t = 3 /\ elems t = elems u /\ gti t = TW2 (KScalar (SI 8)) (KInt 64) /\ gti t = gti u /\ covers t = true.
Proof. repeat split. Qed.

(* MEMORY (byval / sret pointer) exactly when the aggregate is larger than two eightbytes;
   any shape, nested or not. *)
Theorem amd64_memory_iff_gt16 : forall t,
  (2 <= length (elems t))%nat -> (gti t = TPtr <-> 16 < csize t) /\ (16 < csize t -> sysv t = [Memory]).
Proof. intros t L. split; [now apply gti_memory|apply sysv_memory]. Qed.
Print Assumptions amd64_memory_iff_gt16.

(* Storing the value as the struct and loading the coerced parts from the same memory (and
   the way back) transports every byte of every field, for every byte image and whatever the
   destination held before; and no coerced part reaches past the value (covers). *)
Theorem coerced_covers_bytes : forall t img base,
  forallb wf_scalar (elems t) = true -> flat_equiv t = true -> elems t <> [] -> csize t <= 16 ->
  length img = N.to_nat (csize t) -> length base = length img ->
  let rs := ranges (csize t) (gti t) in
  covers t = true /\
  forall o s i, In (o, s) (flat 0 t) -> o <= i < o + ssz s ->
    nth (N.to_nat i) (unpack rs (pack rs img) base) 0 = nth (N.to_nat i) img 0.
Proof.
  intros t img base W E NE S LI LB rs.
  pose proof (proj2 (classify_ok t W E NE S)) as C. split; [exact C|].
  intros o s i I R. exact (covers_roundtrip (csize t) (flat 0 t) rs img base C LI LB o s i I R).
Qed.
Print Assumptions coerced_covers_bytes.

(* the hypotheses are met by non-trivial shapes *)
Example classify_nontrivial :
  let t := CStruct [CStruct [CS SF32; CS SF32]; CArr 2 (CS (SI 2)); CS (SI 1)] in
  forallb wf_scalar (elems t) = true /\ flat_equiv t = true /\ csize t = 16 /\
  gti t = TW2 KV2F (KInt 64) /\ sysv t = [Sse; Integer].
Proof. repeat split. Qed.

(* ---- where the unchanged tree violates the property ---- *)

(* Nested tail padding: struct { struct{int32;int8}; int8; int32 } is coerced to {i64, i32}
   and its last field (bytes 12..15) is not transported; with a float as last field even the
   class of the second eightbyte is wrong (SSE instead of INTEGER). *)
Theorem covers_nested_tail_padding_refuted :
  exists t t', forallb wf_scalar (elems t) = true /\ csize t <= 16 /\ flat_equiv t = false /\
    (exists o s, In (o, s) (flat 0 t) /\ leaves_covered t = false) /\
    classes (csize t') (elems t') (gti t') <> sysv t'.
Proof.
  exists w_tail, w_tail_float. destruct tail_witness as [W [S [F [_ [I [L [C V]]]]]]].
  repeat split; auto. - rewrite S. lia. - exists 12, (SI 4). auto. - rewrite C, V. discriminate.
Qed.
Print Assumptions covers_nested_tail_padding_refuted.

(* The psABI passes an argument in registers only if ALL its eightbytes get one; otherwise
   the whole argument goes to memory.  The two coerced parts are handed over one by one:
   with one free integer register struct{int64;int64} is split between r9 and the stack,
   and a <2 x float> part on the stack is not where the callee reads it. *)
Theorem whole_argument_rule_refuted :
  exists t, flat_equiv t = true /\ covers t = true /\
    psabi_in_regs (sysv t) 1 8 = false /\ seq_any_reg (sysv t) 1 8 = true /\ split_mismatch t 5 0 = true.
Proof.
  exists w_two_i64. destruct split_witness as [F [C [_ [P [Q [M _]]]]]]. auto.
Qed.
Print Assumptions whole_argument_rule_refuted.

(* C strings: CStrCopy followed by a strlen-based read gives back the bytes up to the first
   NUL - the whole string when it has none, whatever follows the terminator in memory. *)
Theorem cstr_roundtrip : forall s rest, nul_free s = true -> from_cstr (to_cstr s ++ rest) = s.
Proof. intros s rest NF. unfold to_cstr. rewrite <- app_assoc. now apply from_cstr_nul. Qed.
Print Assumptions cstr_roundtrip.

Theorem cstr_roundtrip_embedded_nul : forall a b rest,
  nul_free a = true -> from_cstr (to_cstr (a ++ 0 :: b) ++ rest) = a.
Proof. intros a b rest NF. unfold to_cstr. rewrite <- !app_assoc. now apply from_cstr_nul. Qed.
Print Assumptions cstr_roundtrip_embedded_nul.
