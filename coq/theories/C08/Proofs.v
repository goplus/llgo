(* C08 - lemmas behind Props.v.  The spine: layout_shift (the llvm layout of a field list is the
   gc layout with every field moved by the func-value words before it), the invariant agrees,
   carried through arrays (arr_agrees) and structs (struct_agrees) by inv_all, and from it
   go_eq_ll, abi_size_ll, ptrbytes_eq.  Beside it: the llvm layout is well formed (ll_wf and the offs_from lemmas),
   and the witnesses of the disagreements. *)
From LLGoV Require Import Lib.Common C08.Model.
Local Open Scope N_scope.

Lemma align_up_0 a : align_up 0 a = 0.
Proof.
  unfold align_up. destruct (a =? 0) eqn:E; [reflexivity|].
  apply N.eqb_neq in E. rewrite N.add_0_l.
  rewrite N.div_small by lia. reflexivity.
Qed.

Lemma align_up_ge x a : x <= align_up x a.
Proof.
  unfold align_up. destruct (a =? 0) eqn:E; [lia|]. apply N.eqb_neq in E.
  pose proof (N.div_mod (x + a - 1) a E) as D.
  pose proof (N.mod_upper_bound (x + a - 1) a E) as U.
  rewrite (N.mul_comm a) in D. lia.
Qed.

Lemma align_up_divide x a : a <> 0 -> (a | align_up x a).
Proof.
  intros E. unfold align_up. apply N.eqb_neq in E. rewrite E.
  exists ((x + a - 1) / a). reflexivity.
Qed.

Lemma align_up_id x a : a <> 0 -> (a | x) -> align_up x a = x.
Proof.
  intros E [c ->]. unfold align_up. apply N.eqb_neq in E as E'. rewrite E'.
  replace (c * a + a - 1) with ((a - 1) + c * a) by lia.
  rewrite N.div_add by exact E. rewrite N.div_small by lia. lia.
Qed.

Lemma align_up_add x k a : a <> 0 -> (a | k) -> align_up (x + k) a = align_up x a + k.
Proof.
  intros E [c ->]. unfold align_up. apply N.eqb_neq in E as E'. rewrite E'.
  replace (x + c * a + a - 1) with ((x + a - 1) + c * a) by lia.
  rewrite N.div_add by exact E. lia.
Qed.

Lemma align_up_idem x a : a <> 0 -> align_up (align_up x a) a = align_up x a.
Proof. intros E. apply align_up_id; [exact E|]. now apply align_up_divide. Qed.

Lemma end_from_ge cur l : cur <= end_from cur l.
Proof.
  revert cur; induction l as [|[s a] r IH]; intros cur; cbn; [lia|].
  specialize (IH (align_up cur a + s)). pose proof (align_up_ge cur a). lia.
Qed.

Lemma last_from_spec cur l d : l <> [] ->
  fst (last_from cur l) + snd (last_from cur l) = end_from cur l /\
  snd (last_from cur l) = fst (last l d).
Proof.
  revert cur; induction l as [|[s a] r IH]; intros cur NE; [congruence|].
  destruct r as [|p r']; [now cbn|].
  change (last_from cur ((s, a) :: p :: r')) with (last_from (align_up cur a + s) (p :: r')).
  change (end_from cur ((s, a) :: p :: r')) with (end_from (align_up cur a + s) (p :: r')).
  change (last ((s, a) :: p :: r') d) with (last (p :: r') d).
  apply IH. discriminate.
Qed.

Lemma max_align_nz l : max_align l <> 0.
Proof. unfold max_align. induction l as [|x r IH]; cbn; lia. Qed.

Lemma max_align_in l : max_align l = 1 \/ exists x, In x l /\ max_align l = snd x.
Proof.
  induction l as [|x r IH]; [now left|]. cbn [max_align fold_right].
  fold (max_align r). destruct (N.max_spec (snd x) (max_align r)) as [[_ ->]|[_ ->]].
  - destruct IH as [E|[y [I E]]]; [now left|]. right. exists y. split; [now right|exact E].
  - right. exists x. split; [now left|reflexivity].
Qed.

Lemma max_align_divides P l :
  Forall (fun x => (snd x | P)) l -> (max_align l | P).
Proof.
  intros F. destruct (max_align_in l) as [->|[x [I ->]]].
  - apply N.divide_1_l.
  - rewrite Forall_forall in F. now apply F.
Qed.

Lemma ty_ind' (P : ty -> Prop) :
  P TBool -> (forall w, P (TInt w)) -> P TWord -> P TF32 -> P TF64 -> P TC64 -> P TC128 ->
  P TStr -> P TUPtr -> P TPtr -> P TFunc -> P TIface -> P TSlice -> P TMap -> P TChan ->
  (forall n e, P e -> P (TArr n e)) ->
  (forall fs, Forall P fs -> P (TStruct fs)) ->
  forall t, P t.
Proof.
  intros ? HInt ? ? ? ? ? ? ? ? ? ? ? ? ? HArr HStruct.
  fix IH 1. intros [ | w | | | | | | | | | | | | | | n e | fs]; try assumption.
  - apply HInt.
  - apply HArr. apply IH.
  - apply HStruct. induction fs as [|f r IHr]; constructor; [apply IH|exact IHr].
Qed.

Lemma last_map {A B} (f : A -> B) l d : last (map f l) (f d) = f (last l d).
Proof.
  induction l as [|x r IH]; [reflexivity|]. destruct r as [|y r']; [reflexivity|].
  change (last (map f (x :: y :: r')) (f d)) with (last (map f (y :: r')) (f d)).
  change (last (x :: y :: r') d) with (last (y :: r') d). exact IH.
Qed.

Lemma last_In {A} (l : list A) d : l <> [] -> In (last l d) l.
Proof.
  induction l as [|x r IH]; [congruence|]. intros _. destruct r as [|y r']; [now left|].
  right. change (last (x :: y :: r') d) with (last (y :: r') d). apply IH. discriminate.
Qed.

Definition sum_extra T (fs : list ty) : N := fold_right (fun f x => extra T f + x) 0 fs.

Lemma max_align_map_snd (l l' : list sa) :
  map snd l = map snd l' -> max_align l = max_align l'.
Proof.
  revert l'; induction l as [|x r IH]; intros [|y r'] E; try discriminate; [reflexivity|].
  cbn in E. injection E as E1 E2. unfold max_align; cbn. rewrite E1. f_equal. now apply IH.
Qed.

(* what one field must satisfy for the shift argument *)
Definition fld_ok T (f : ty) : Prop :=
  snd (gb T f) = snd (ll T f) /\ fst (gb T f) + extra T f = fst (ll T f) /\
  (ptr T | extra T f) /\ (snd (ll T f) | ptr T) /\ snd (ll T f) <> 0.

(* llvm lays the fields out like the base sizes do, every field moved by the extra words
   before it (and by X, a multiple of the pointer size, if the start is moved by X) *)
Lemma layout_shift T fs :
  Forall (fld_ok T) fs -> forall cur X, (ptr T | X) ->
  end_from (cur + X) (map (ll T) fs) = end_from cur (map (gb T) fs) + X + sum_extra T fs /\
  offs_from (cur + X) (map (ll T) fs) = shift_extras T X (offs_from cur (map (gb T) fs)) fs.
Proof.
  unfold sum_extra.
  induction 1 as [|f r [Ea [Es [Dx [Da Na]]]] _ IH]; intros cur X DX; cbn; [split; [lia|reflexivity]|].
  destruct (ll T f) as [s' a'] eqn:EL, (gb T f) as [s a] eqn:EG. cbn in *. subst a.
  rewrite align_up_add by (auto; eapply N.divide_trans; eauto).
  replace (align_up cur a' + X + s') with ((align_up cur a' + s) + (X + extra T f)) by lia.
  destruct (IH (align_up cur a' + s) (X + extra T f)) as [IH1 IH2]; [now apply N.divide_add_r|].
  rewrite IH1, IH2. split; [lia|reflexivity].
Qed.

Lemma end_from_sum T fs cur :
  Forall (fun f => extra T f <= fst (gb T f)) fs ->
  cur + sum_extra T fs <= end_from cur (map (gb T) fs).
Proof.
  unfold sum_extra.
  intros F; revert cur; induction F as [|f r Hf _ IH]; intros cur; cbn; [lia|].
  destruct (gb T f) as [s a]. cbn in Hf.
  specialize (IH (align_up cur a + s)). pose proof (align_up_ge cur a). lia.
Qed.

Lemma end_from_zero_all (l : list sa) cur :
  end_from cur l = cur -> Forall (fun x => fst x = 0) l.
Proof.
  revert cur; induction l as [|[s a] r IH]; intros cur E; [constructor|]. cbn in E.
  pose proof (end_from_ge (align_up cur a + s) r). pose proof (align_up_ge cur a).
  constructor; [cbn; lia|]. apply (IH (align_up cur a + s)). lia.
Qed.

Lemma end_from_zero (l : list sa) : Forall (fun x => fst x = 0) l -> end_from 0 l = 0.
Proof.
  induction 1 as [|[s a] r E _ IH]; [reflexivity|]. cbn in *. subst s.
  now rewrite align_up_0.
Qed.

Lemma sum_extra_divide T fs : Forall (fld_ok T) fs -> (ptr T | sum_extra T fs).
Proof.
  unfold sum_extra. induction 1 as [|f r (_ & _ & D & _) _ IH]; cbn; [apply N.divide_0_r|].
  now apply N.divide_add_r.
Qed.

Lemma max_align_agree T fs : Forall (fld_ok T) fs ->
  max_align (map (gb T) fs) = max_align (map (ll T) fs) /\ (max_align (map (ll T) fs) | ptr T).
Proof.
  intros F. rewrite Forall_forall in F. split.
  - apply max_align_map_snd. rewrite !map_map. apply map_ext_in. intros f I. apply (F f I).
  - apply max_align_divides. apply Forall_map, Forall_forall. intros f I. apply (F f I).
Qed.

(* what the induction over types carries, so that go = llvm goes through; [inv] is the same
   under the side conditions on t *)

Definition agrees T (t : ty) : Prop :=
  fld_ok T t /\ (snd (ll T t) | fst (gb T t)) /\ extra T t <= fst (gb T t) /\
  (zsize t = true <-> fst (gb T t) = 0).

Definition inv T (t : ty) : Prop := wf_ty t = true -> nzt t = true -> agrees T t.

(* gc sizes: the special cases of an array of no or of zero-size elements give s * n as well *)
Lemma gb_arr T n e : gcs T = true -> gb T (TArr n e) = (fst (gb T e) * n, snd (gb T e)).
Proof.
  intros G. cbn [gb]. rewrite G. destruct (gb T e) as [s a]. cbn [fst snd].
  destruct (n =? 0) eqn:En; [apply N.eqb_eq in En; subst n; now rewrite N.mul_0_r|].
  destruct (s =? 0) eqn:Es; [apply N.eqb_eq in Es; subst s|]; reflexivity.
Qed.

Lemma ll_arr T n e : ll T (TArr n e) = (n * fst (ll T e), snd (ll T e)).
Proof. cbn [ll]. now destruct (ll T e). Qed.

Lemma arr_agrees T n e : gcs T = true -> agrees T e -> agrees T (TArr n e).
Proof.
  intros G ((Ea & Es & Dx & Da & Na) & Ds & Le & Zs). unfold agrees, fld_ok.
  rewrite gb_arr, ll_arr by exact G. cbn [fst snd extra zsize]. repeat split; auto.
  - rewrite <- Es. ring.
  - now apply N.divide_mul_l.
  - now apply N.divide_mul_l.
  - now apply N.mul_le_mono_r.
  - rewrite orb_true_iff, N.eqb_eq, Zs. intros [-> | ->]; lia.
  - rewrite orb_true_iff, N.eqb_eq, Zs. intros E. apply N.eq_mul_0 in E. tauto.
Qed.

(* gc sizes: unless the last field is zero-size behind a sized one no padding byte is added,
   and the size of a struct is the aligned end of its fields *)
Lemma gb_struct T fs : gcs T = true ->
  (fs <> [] -> fst (gb T (last fs TBool)) <> 0 \/ end_from 0 (map (gb T) fs) = 0) ->
  gb T (TStruct fs) =
    (align_up (end_from 0 (map (gb T) fs)) (max_align (map (gb T) fs)), max_align (map (gb T) fs)).
Proof.
  intros G TL. cbn [gb]. rewrite G. destruct (map (gb T) fs) as [|p l0] eqn:EM; [cbn [end_from]; now rewrite align_up_0|].
  assert (NE : fs <> []) by (intros ->; discriminate). rewrite <- EM in *.
  assert (NE' : map (gb T) fs <> []) by (rewrite EM; discriminate).
  destruct (last_from_spec 0 _ (gb T TBool) NE') as [LE LS]. rewrite last_map in LS.
  destruct (last_from 0 (map (gb T) fs)) as [o s]. cbn [fst snd] in LE, LS.
  assert (C : (0 <? o) && (s =? 0) = false).
  { destruct (TL NE) as [S0|E0].
    - rewrite <- LS in S0. apply N.eqb_neq in S0. rewrite S0. apply andb_false_r.
    - assert (o = 0) as -> by lia. reflexivity. }
  now rewrite C, LE.
Qed.

Lemma struct_agrees T fs :
  gcs T = true -> nzt (TStruct fs) = true -> Forall (agrees T) fs -> agrees T (TStruct fs).
Proof.
  intros G Z F. cbn [nzt] in Z. apply andb_true_iff in Z as [_ Zl]. unfold agrees in F.
  apply Forall_and_inv in F as [F1 F]. apply Forall_and_inv in F as [_ F].
  apply Forall_and_inv in F as [F2 F3]. rewrite Forall_forall in F3.
  destruct (max_align_agree T fs F1) as [EA DA]. pose proof (sum_extra_divide T fs F1) as DX.
  destruct (layout_shift T fs F1 0 0 (N.divide_0_r _)) as [SH _]. rewrite !N.add_0_r in SH. cbn [N.add] in SH.
  assert (ZF : forallb zsize fs = true <-> end_from 0 (map (gb T) fs) = 0).
  { rewrite forallb_forall. split.
    - intros Hz. apply end_from_zero, Forall_map, Forall_forall. intros f I. apply F3; auto.
    - intros E0 f I. apply end_from_zero_all in E0. rewrite Forall_forall in E0.
      apply F3; [exact I|]. apply (E0 (gb T f)). now apply in_map. }
  unfold agrees, fld_ok. rewrite gb_struct; [|exact G|].
  - rewrite EA. set (A := max_align (map (ll T) fs)) in *.
    assert (NA : A <> 0) by apply max_align_nz.
    cbn [ll extra fst snd zsize]. fold (sum_extra T fs). fold A. rewrite SH.
    rewrite align_up_add by (auto; eapply N.divide_trans; eauto).
    pose proof (align_up_ge (end_from 0 (map (gb T) fs)) A) as GE.
    repeat split; auto.
    + now apply align_up_divide.
    + pose proof (end_from_sum T fs 0 F2). lia.
    + intros Hz. apply ZF in Hz. rewrite Hz. apply align_up_0.
    + intros Hz. apply ZF. lia.
  - (* nzt: the last field has a size, or all are zero-size *)
    intros NE. destruct fs as [|f0 r0] eqn:E; [congruence|]. rewrite <- E in *.
    apply orb_true_iff in Zl as [Zl|Zl]; [left|right; now apply ZF].
    intros E0. apply F3 in E0; [|now apply last_In]. now rewrite E0 in Zl.
Qed.

Lemma fields_of_struct fs :
  wf_ty (TStruct fs) = true -> nzt (TStruct fs) = true ->
  forall f, In f fs -> wf_ty f = true /\ nzt f = true.
Proof.
  cbn [wf_ty nzt]. intros W Z f I. apply andb_true_iff in Z as [Z _].
  rewrite forallb_forall in W, Z. auto.
Qed.

Lemma wf_int_cases w : wf_int w = true -> w = 1 \/ w = 2 \/ w = 4 \/ w = 8.
Proof.
  unfold wf_int. intros W. repeat (apply orb_true_iff in W as [W|W]); apply N.eqb_eq in W; auto.
Qed.

(* For a scalar type on a concrete pointer size [agrees] is a handful of closed facts about
   numerals (equations, <=, divisibility with the quotient computed): scalar_case splits and
   closes them. *)
Ltac div_solve :=
  match goal with
  | |- (?a | ?b) => exists (b / a); vm_compute; reflexivity
  end.

Ltac scalar_case :=
  unfold agrees, fld_ok; cbn;
  repeat split; try lia; try div_solve; try discriminate; try (intros; discriminate).

Lemma inv_all T : agree_target T -> forall t, inv T t.
Proof.
  intros [G [HP [GM L6]]].
  destruct T as [P gm gc l6]; cbn in *. subst gm gc l6.
  induction t using ty_ind'.
  (* TBool, TInt, the thirteen other scalar constructors; arrays and structs are the bullets *)
  all: [> intros _ _; destruct HP; subst P; scalar_case
        | intros W _; destruct (wf_int_cases w W) as [-> | [-> | [-> | ->]]];
          destruct HP; subst P; scalar_case
        | intros _ _; destruct HP; subst P; scalar_case ..
        | | ].
  - intros W Z. apply arr_agrees; [reflexivity|]. now apply IHt.
  - intros W Z. apply struct_agrees; [reflexivity|exact Z|].
    rewrite Forall_forall in *. intros f I. destruct (fields_of_struct fs W Z f I). now apply H.
Qed.

Lemma go_eq_ll T t :
  agree_target T -> wf_ty t = true -> nzt t = true ->
  go_size T t = ll_size T t /\ go_align T t = ll_align T t /\
  go_offsets T (top_fields t) = ll_offsets T (top_fields t).
Proof.
  intros A W Z.
  destruct (inv_all T A t W Z) as [[Ea [Es [Dx [Da Na]]]] [Ds _]].
  unfold go_size, go_align, ll_size, ll_align. split; [|split].
  - rewrite Es. destruct (is_aggregate t); [|reflexivity].
    rewrite Ea. apply align_up_id; [exact Na|].
    rewrite <- Es. apply N.divide_add_r; [exact Ds|].
    apply (N.divide_trans _ (ptr T)); assumption.
  - exact Ea.
  - destruct t; try reflexivity. cbn [top_fields]. unfold go_offsets, ll_offsets.
    assert (F : Forall (fld_ok T) fs).
    { rewrite Forall_forall. intros f I. destruct (fields_of_struct fs W Z f I) as [Wf Zf].
      now destruct (inv_all T A f Wf Zf). }
    destruct (layout_shift T fs F 0 0 (N.divide_0_r _)) as [_ S]. cbn [N.add] in S. now rewrite S.
Qed.

Lemma forallb_map {A B} (p : B -> bool) (f : A -> B) l : forallb p (map f l) = forallb (fun x => p (f x)) l.
Proof. induction l; cbn; [reflexivity|]. now rewrite IHl. Qed.

Lemma forallb_ext_in {A} (p q : A -> bool) l : (forall x, In x l -> p x = q x) -> forallb p l = forallb q l.
Proof.
  induction l as [|x r IH]; intros H; cbn; [reflexivity|].
  rewrite (H x) by now left. rewrite IH; [reflexivity|]. intros y I. apply H. now right.
Qed.

Lemma ll_raw T : (ptr T = 4 \/ ptr T = 8) -> forall t, ll T (raw t) = ll T t.
Proof.
  intros HP. induction t using ty_ind'; try reflexivity.
  - destruct T as [P gm gc l6]; cbn in HP. destruct HP; subst P; reflexivity.
  - cbn [raw ll]. now rewrite IHt.
  - cbn [raw ll]. rewrite map_map.
    replace (map (fun x => ll T (raw x)) fs) with (map (ll T) fs); [reflexivity|].
    apply map_ext_in. intros f I. rewrite Forall_forall in H. symmetry. now apply H.
Qed.

Lemma wf_raw : forall t, wf_ty (raw t) = wf_ty t.
Proof.
  induction t using ty_ind'; try reflexivity.
  - exact IHt.
  - cbn [raw wf_ty]. rewrite forallb_map. apply forallb_ext_in. rewrite Forall_forall in H. exact H.
Qed.

Lemma zsize_raw : forall t, zsize (raw t) = zsize t.
Proof.
  induction t using ty_ind'; try reflexivity.
  - cbn [raw zsize]. now rewrite IHt.
  - cbn [raw zsize]. rewrite forallb_map. apply forallb_ext_in. rewrite Forall_forall in H. exact H.
Qed.

Lemma nzt_raw : forall t, nzt (raw t) = nzt t.
Proof.
  induction t using ty_ind'; try reflexivity.
  - exact IHt.
  - cbn [raw nzt]. rewrite forallb_map.
    rewrite (forallb_ext_in (fun x => nzt (raw x)) nzt fs) by (rewrite Forall_forall in H; exact H).
    f_equal. destruct fs as [|f0 r0]; [reflexivity|].
    change TBool with (raw TBool) at 1. rewrite last_map, zsize_raw, forallb_map.
    rewrite (forallb_ext_in (fun x => zsize (raw x)) zsize) by (intros; apply zsize_raw).
    reflexivity.
Qed.

Lemma fold_max_map T fs :
  Forall (fun f => abi_align T true f = snd (ll T f)) fs ->
  fold_right (fun f m => N.max (abi_align T true f) m) 1 fs = max_align (map (ll T) fs).
Proof.
  induction 1 as [|f r E _ IH]; [reflexivity|]. unfold max_align in *. cbn. now rewrite E, IH.
Qed.

(* the repaired alignment table IS the LLVM alignment, on every target and every type *)
Lemma abi_align_ll T : forall t, abi_align T true t = ll_align T t.
Proof.
  unfold ll_align. induction t using ty_ind'; try reflexivity.
  - rewrite ll_arr. exact IHt.
  - cbn [abi_align ll snd]. apply fold_max_map. exact H.
Qed.

Lemma abi_size_ll T :
  agree_target T -> forall t, wf_ty t = true -> nzt t = true -> abi_size T t = ll_size T t.
Proof.
  intros A. unfold ll_size.
  induction t using ty_ind'; intros W Z.
  (* the fifteen scalar constructors: numerals on both sides once the pointer size is known;
     arrays and structs are the bullets *)
  all: [> destruct A as [G [HP [GM L6]]]; destruct T as [P gm gc l6]; cbn in *; subst;
          destruct HP; subst; reflexivity .. | | ].
  - rewrite ll_arr. cbn [abi_size fst]. now rewrite (IHt W Z).
  - cbn [abi_size]. change (TStruct (map raw fs)) with (raw (TStruct fs)).
    destruct (go_eq_ll T (raw (TStruct fs)) A) as [E _]; [now rewrite wf_raw|now rewrite nzt_raw|].
    rewrite E. unfold ll_size. rewrite ll_raw; [reflexivity|]. now destruct A as [_ [HP _]].
Qed.

Lemma ll_wf T :
  llvm_target T -> forall t, wf_ty t = true ->
  snd (ll T t) <> 0 /\ (snd (ll T t) | fst (ll T t)).
Proof.
  intros [HP H6]. destruct T as [P gm gc l6]; cbn in HP, H6.
  induction t using ty_ind'; intros W.
  (* TBool, TInt, the thirteen other scalar constructors; arrays and structs are the bullets *)
  all: [> destruct HP, H6; subst; cbn; split; try lia; try div_solve
        | destruct (wf_int_cases w W) as [-> | [-> | [-> | ->]]];
          destruct H6; subst; cbn; split; try lia; try div_solve
        | destruct HP, H6; subst; cbn; split; try lia; try div_solve ..
        | | ].
  - rewrite ll_arr. destruct (IHt W) as [Na Da]. split; [exact Na|]. now apply N.divide_mul_r.
  - cbn [ll fst snd]. split; [apply max_align_nz|]. apply align_up_divide, max_align_nz.
Qed.

Lemma offs_from_ge l : forall cur o, In o (offs_from cur l) -> cur <= o.
Proof.
  induction l as [|[s a] r IH]; intros cur o I; cbn in I; [contradiction|].
  destruct I as [<-|I]; [apply align_up_ge|].
  apply IH in I. pose proof (align_up_ge cur a). lia.
Qed.

Lemma offs_from_aligned l : forall cur i o x,
  nth_error (offs_from cur l) i = Some o -> nth_error l i = Some x -> snd x <> 0 -> (snd x | o).
Proof.
  induction l as [|[s a] r IH]; intros cur i o x; destruct i; cbn; try discriminate.
  - intros [= <-] [= <-] N0. now apply align_up_divide.
  - apply IH.
Qed.

Lemma offs_from_disjoint l : forall cur i j oi oj x,
  (i < j)%nat -> nth_error (offs_from cur l) i = Some oi -> nth_error (offs_from cur l) j = Some oj ->
  nth_error l i = Some x -> oi + fst x <= oj.
Proof.
  induction l as [|[s a] r IH]; intros cur i j oi oj x L; destruct i, j; cbn; try discriminate; try lia.
  - intros [= <-] Hj [= <-]. cbn. apply nth_error_In in Hj. now apply offs_from_ge in Hj.
  - intros Hi Hj Hx. apply (IH (align_up cur a + s) i j oi oj x); [lia|assumption|assumption|assumption].
Qed.

Lemma offs_from_within l : forall cur i o x,
  nth_error (offs_from cur l) i = Some o -> nth_error l i = Some x -> o + fst x <= end_from cur l.
Proof.
  induction l as [|[s a] r IH]; intros cur i o x; destruct i; cbn; try discriminate.
  - intros [= <-] [= <-]. cbn. apply end_from_ge.
  - apply IH.
Qed.

(* witnesses of the disagreements of the unchanged tree *)

Definition w_zero_tail := TStruct [TInt 8; TStruct []].
Definition w_zero_tail_nested := TStruct [w_zero_tail; TInt 1].
Definition w_i32_i64 := TStruct [TInt 4; TInt 8].
Definition w_nested_unpadded := TStruct [TStruct [TInt 4; TInt 1]; TInt 1].
Definition w_ptr_then_int := TStruct [TPtr; TInt 8].

Lemma zero_tail_witness :
  agree_target amd64 /\ wf_ty w_zero_tail_nested = true /\
  go_size amd64 w_zero_tail = 16 /\ ll_size amd64 w_zero_tail = 8 /\ abi_size amd64 w_zero_tail = 16 /\
  go_offsets amd64 (top_fields w_zero_tail_nested) = [0; 16] /\
  ll_offsets amd64 (top_fields w_zero_tail_nested) = [0; 8].
Proof. unfold agree_target. cbn [gcs ptr gomax ll64 amd64]. repeat split; auto. Qed.

Lemma arm_witness :
  wf_ty w_i32_i64 = true /\ nzt w_i32_i64 = true /\
  go_size arm w_i32_i64 = 12 /\ ll_size arm w_i32_i64 = 16 /\
  go_align arm w_i32_i64 = 4 /\ ll_align arm w_i32_i64 = 8 /\
  go_offsets arm (top_fields w_i32_i64) = [0; 4] /\ ll_offsets arm (top_fields w_i32_i64) = [0; 8].
Proof. repeat split. Qed.

Lemma i386_witness :
  agree_target i386 /\ wf_ty w_i32_i64 = true /\ nzt w_i32_i64 = true /\
  abi_align i386 false (TInt 8) = 8 /\ ll_align i386 (TInt 8) = 4 /\ go_align i386 (TInt 8) = 4 /\
  abi_size i386 w_i32_i64 = 12 /\ abi_align i386 false w_i32_i64 = 8.
Proof. unfold agree_target. cbn [gcs ptr gomax ll64 i386]. repeat split; auto. Qed.

Lemma wasm_witness :
  wf_ty w_nested_unpadded = true /\ nzt w_nested_unpadded = true /\
  go_offsets wasm (top_fields w_nested_unpadded) = [0; 5] /\
  ll_offsets wasm (top_fields w_nested_unpadded) = [0; 8] /\
  go_size wasm w_nested_unpadded = 8 /\ ll_size wasm w_nested_unpadded = 12.
Proof. repeat split. Qed.

Lemma ptrbytes_witness :
  agree_target amd64 /\ wf_ty w_ptr_then_int = true /\ nzt w_ptr_then_int = true /\
  abi_ptrbytes amd64 false w_ptr_then_int = 0 /\ ll_ptr_end amd64 w_ptr_then_int = 8.
Proof. unfold agree_target. cbn [gcs ptr gomax ll64 amd64]. repeat split; auto. Qed.

(* PtrBytes after the repair: exactly the end of the last pointer word *)

Fixpoint lastnz (ops : list (N * N)) : N :=
  match ops with
  | [] => 0
  | (o, p) :: r => let rest := lastnz r in
                   if rest =? 0 then (if p =? 0 then 0 else o + p) else rest
  end.

Lemma ll_ptr_end_struct T fs :
  ll_ptr_end T (TStruct fs) = lastnz (combine (ll_offsets T fs) (map (ll_ptr_end T) fs)).
Proof.
  unfold ll_offsets. cbn [ll_ptr_end].
  generalize 0 at 5 6 as cur. (* the start offset: of the loop, and of ll_offsets *)
  induction fs as [|f r IH]; intros cur; [reflexivity|].
  cbn [map offs_from]. unfold ll_align at 1, ll_size at 1.
  destruct (ll T f) as [s a] eqn:EL. cbn [fst snd combine lastnz].
  rewrite <- IH. unfold ll_align, ll_size. rewrite EL. reflexivity.
Qed.

Lemma fold_pb_lastnz l : forall acc,
  pb_result (fold_left (pb_step true) l acc) =
    (if lastnz l =? 0 then pb_result acc else lastnz l).
Proof.
  induction l as [|[o b] r IH]; intros acc; [reflexivity|].
  cbn [fold_left lastnz]. rewrite IH.
  destruct (lastnz r =? 0) eqn:ER.
  - unfold pb_step. destruct (b =? 0) eqn:EB.
    + destruct acc as [fo byt]. cbn [fst snd]. reflexivity.
    + apply N.eqb_neq in EB. assert (o + b =? 0 = false) as -> by (apply N.eqb_neq; lia).
      unfold pb_result. reflexivity.
  - rewrite ER. reflexivity.
Qed.

Lemma ptrbytes_eq T : agree_target T ->
  forall t, wf_ty t = true -> nzt t = true -> abi_ptrbytes T true t = ll_ptr_end T t.
Proof.
  intros A. induction t using ty_ind'; intros W Z; try reflexivity.
  - (* TArr *)
    cbn [abi_ptrbytes ll_ptr_end]. cbn in W, Z. rewrite (IHt W Z), (abi_size_ll T A t W Z).
    destruct (n =? 0) eqn:En; [reflexivity|]. cbn [orb]. apply N.eqb_neq in En.
    destruct (ll_ptr_end T t =? 0); [reflexivity|]. nia.
  - (* TStruct *)
    rewrite ll_ptr_end_struct. cbn [abi_ptrbytes]. rewrite fold_pb_lastnz. unfold pb_result at 1. cbn [fst].
    assert (EO : go_offsets T (map raw fs) = ll_offsets T fs).
    { destruct (go_eq_ll T (raw (TStruct fs)) A) as [_ [_ E]]; [now rewrite wf_raw|now rewrite nzt_raw|].
      cbn [raw top_fields] in E. rewrite E. unfold ll_offsets. rewrite map_map. f_equal.
      apply map_ext. intros f. apply ll_raw. now destruct A as [_ [HP _]]. }
    assert (EP : map (abi_ptrbytes T true) fs = map (ll_ptr_end T) fs).
    { apply map_ext_in. intros f I. destruct (fields_of_struct fs W Z f I) as [Wf Zf].
      rewrite Forall_forall in H. now apply H. }
    rewrite EO, EP. destruct (lastnz _ =? 0) eqn:E0; [apply N.eqb_eq in E0; now rewrite E0|reflexivity].
Qed.
