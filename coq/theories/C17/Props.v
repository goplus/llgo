(* C17 - property theorems only.  Each is followed by Print Assumptions (the
   driver re-prints them on every run). *)
From LLGoV Require Import C17.Model C17.Proofs.
Local Open Scope N_scope.

(* Any list of arguments, each written in any admissible style (bare, single-
   or double-quoted with ' and \ escaped), joined by spaces, is split back into
   exactly the original list: whatever spaces, quotes, backslashes or non-ASCII
   code points the arguments contain. *)
Theorem parse_quote_roundtrip : forall qs : list (style * str),
  all_ok qs = true -> sh_parse (join_sp (quote_all qs)) = Some (map snd qs).
Proof. exact (fun qs => sh_go_roundtrip qs [] 0). Qed.
Print Assumptions parse_quote_roundtrip.

(* every argument has an admissible style: double quotes always work *)
Theorem double_quote_always_ok : forall a, style_ok Double a = true.
Proof. reflexivity. Qed.
Print Assumptions double_quote_always_ok.

Example roundtrip_nontrivial :
  all_ok [(Double, [32; 34; 92; 39; 19990]); (Single, [34; 92; 32]); (Bare, [45; 120; 92]); (Double, [])] = true
  /\ sh_parse (join_sp (quote_all [(Double, [32; 34; 92; 39; 19990]); (Single, [34; 92; 32]); (Bare, [45; 120; 92]); (Double, [])]))
     = Some [[32; 34; 92; 39; 19990]; [34; 92; 32]; [45; 120; 92]; []].
Proof. split; reflexivity. Qed.

(* malformed input is reported: Parse fails exactly when the line ends inside
   an open quote *)
Theorem parse_error_iff_unterminated : forall rs,
  sh_parse rs = None <-> open_quote rs false 0 = true.
Proof. exact (fun rs => sh_go_none_iff rs [] [] false 0 false). Qed.
Print Assumptions parse_error_iff_unterminated.

(* pkg-config style: flags rendered as '-c' followed by the content with blanks
   escaped by '\' and joined by spaces are split back exactly.  The guard
   [wf_flag] is what the splitter's documented format requires: the flag
   character is not a blank, the content does not start with '-', does not end
   in '\' (there is no escape for a backslash) and the flag does not end in
   white space (the final TrimSpace removes it: finding F11, witnessed below). *)
Theorem split_render_roundtrip : forall fs : list (N * str),
  forallb wf_flag fs = true ->
  pc_split (join_sp (map pc_render fs)) = map pc_value fs.
Proof.
  intros [|[c a] fs] H; [reflexivity|].
  apply forallb_cons in H as [Hw Hfs].
  rewrite join_render. unfold pc_split, pc_render. cbn [fst snd app skip_blanks].
  change (is_blank DASH) with false. cbv iota. cbn [pc_go pc_flush app].
  now rewrite pc_go_flags.
Qed.
Print Assumptions split_render_roundtrip.

Example split_nontrivial :
  forallb wf_flag [(73, [47; 97; 32; 98; 92; 32; 45; 99]); (108, []); (76, [32; 195; 169])] = true.
Proof. reflexivity. Qed.

(* Finding F11: a flag whose content ends in an escaped blank does not come
   back.  The second conjunct says that nothing else is wrong with the witness:
   without its last content byte it satisfies wf_flag. *)
Theorem trailing_space_refuted :
  exists f, pc_split (pc_render f) <> [pc_value f]
            /\ wf_flag (fst f, removelast (snd f)) = true.
Proof. exists (73, [97; 32]). split; [vm_compute; congruence | reflexivity]. Qed.
Print Assumptions trailing_space_refuted.

(* build tags: the tag list has no duplicates and holds exactly the tags named
   by -tags flags; no tag is empty or contains a separator *)
Theorem tags_nodup : forall flags, NoDup (parse_tags flags).
Proof. exact (fun flags => proj1 (dedup_spec (collect_tags flags) [])). Qed.
Print Assumptions tags_nodup.

Theorem tags_mem_iff : forall flags x, In x (parse_tags flags) <-> In x (collect_tags flags).
Proof. intros flags x. unfold parse_tags. rewrite (proj2 (dedup_spec _ [])). cbn. tauto. Qed.
Print Assumptions tags_mem_iff.

Theorem tags_wellformed : forall s,
  Forall (fun t => t <> [] /\ forallb (fun b => negb (tag_sep b)) t = true) (fields s).
Proof. intros s. apply fields_go_ok; [constructor | reflexivity]. Qed.
Print Assumptions tags_wellformed.

(* {key} expansion: a template of brace-free literal bytes and references to
   key k becomes the literals with the value in place of every reference
   (partial: one key; with several keys the order of a Go map enumeration can
   matter when values contain braces) *)
Theorem brace_expand_single_key_partial : forall k v t fuel,
  k <> [] -> forallb seg_ok t = true -> (fuel > length (render_t k t))%nat ->
  replace_all fuel (brace k) v (render_t k t) = subst_t v t.
Proof. intros k v t fuel _. apply replace_all_render. Qed.
Print Assumptions brace_expand_single_key_partial.

(* -X importpath.name=value: package path free of '=', variable name free of
   '.' and '=': the three parts come back for ANY value (the value may contain
   '=' and '.') *)
Theorem xflag_split_roundtrip : forall pkg name value,
  forallb (fun x => negb (x =? EQ)) pkg = true ->
  forallb (fun x => negb (x =? EQ)) name = true ->
  forallb (fun x => negb (x =? DOT)) name = true ->
  xflag_split (pkg ++ DOT :: name ++ EQ :: value) = Some (pkg, name, value).
Proof. exact xflag_split_join. Qed.
Print Assumptions xflag_split_roundtrip.

(* compiler flags: flags rendered into CCFLAGS / CFLAGS come back one by one,
   followed by the configured lists, in this order *)
Theorem merge_compiler_flags_roundtrip : forall fs1 fs2 cfg_cc cfg_c,
  forallb wf_flag fs1 = true -> forallb wf_flag fs2 = true ->
  merge_compiler (join_sp (map pc_render fs1)) (join_sp (map pc_render fs2)) cfg_cc cfg_c
  = map pc_value fs1 ++ map pc_value fs2 ++ cfg_cc ++ cfg_c.
Proof. intros fs1 fs2 cfg_cc cfg_c H1 H2. unfold merge_compiler. now rewrite !split_render_roundtrip. Qed.
Print Assumptions merge_compiler_flags_roundtrip.
