(* C17 - lemmas about the splitters of C17.Model, in the order of that file.  For
   each splitter: what one piece of rendered input does to the state of the
   scanning loop (the ..._body, pc_go_content, fields_go_ok lemmas), then the
   induction over the pieces (sh_go_roundtrip, pc_go_flags); dedup_spec is the
   invariant of the tag de-duplication. *)
From LLGoV Require Import C17.Model.
Local Open Scope N_scope.

Lemma sh_parse_nil : sh_parse [] = Some [].
Proof. reflexivity. Qed.

Lemma forallb_cons {A} (f : A -> bool) x l :
  forallb f (x :: l) = true -> f x = true /\ forallb f l = true.
Proof. apply andb_true_iff. Qed.

Lemma app_assoc1 {A} (l : list A) x m : (l ++ [x]) ++ m = l ++ x :: m.
Proof. now rewrite <- app_assoc. Qed.

Lemma sh_go_dq_body a : forall rest args cur,
  sh_go (esc_dq a ++ DQ :: rest) args cur true DQ true
  = sh_go rest args (cur ++ a) false 0 true.
Proof.
  induction a as [|c a IH]; intros rest args cur.
  - cbn [esc_dq app]. rewrite app_nil_r. reflexivity.
  - cbn [esc_dq]. destruct ((c =? DQ) || (c =? BS)) eqn:E.
    + cbn [app sh_go negb andb]. change (BS =? DQ) with false. change (BS =? BS) with true.
      cbn [andb]. change (DQ =? DQ) with true. cbv iota. rewrite E.
      rewrite IH, app_assoc1. reflexivity.
    + apply orb_false_iff in E as [E1 E2].
      cbn [app sh_go negb andb]. rewrite E1, E2. cbn [andb].
      rewrite IH, app_assoc1. reflexivity.
Qed.

Lemma sh_go_sq_body a : forall rest args cur,
  forallb (fun c => negb (c =? SQ)) a = true ->
  sh_go (a ++ SQ :: rest) args cur true SQ true
  = sh_go rest args (cur ++ a) false 0 true.
Proof.
  induction a as [|c a IH]; intros rest args cur Hok.
  - cbn [app]. rewrite app_nil_r. reflexivity.
  - apply forallb_cons in Hok as [Hc Ha].
    apply negb_true_iff in Hc.
    cbn [app sh_go negb andb]. rewrite Hc. cbn [andb].
    destruct (c =? BS) eqn:EB.
    + destruct (a ++ SQ :: rest) as [|nx rs] eqn:EL.
      { destruct a; discriminate EL. }
      change (SQ =? DQ) with false. cbv iota.
      rewrite <- EL, IH, app_assoc1 by exact Ha. reflexivity.
    + rewrite IH, app_assoc1 by exact Ha. reflexivity.
Qed.

Lemma sh_go_bare_body a : forall rest args cur qc has,
  forallb (fun c => negb (is_space c) && negb (is_quote c)) a = true ->
  sh_go (a ++ rest) args cur false qc has
  = sh_go rest args (cur ++ a) false qc (match a with [] => has | _ => true end).
Proof.
  induction a as [|c a IH]; intros rest args cur qc has Hok.
  - cbn [app]. rewrite app_nil_r. reflexivity.
  - apply forallb_cons in Hok as [Hc Ha].
    apply andb_true_iff in Hc as [Hs Hq].
    apply negb_true_iff in Hs. apply negb_true_iff in Hq.
    cbn [app sh_go negb andb]. rewrite Hq, Hs. cbn [andb].
    rewrite IH, app_assoc1 by exact Ha. destruct a; reflexivity.
Qed.

Lemma sh_go_qc_irrel rs : forall args cur q1 q2 has,
  sh_go rs args cur false q1 has = sh_go rs args cur false q2 has.
Proof.
  induction rs as [|r rs IH]; intros args cur q1 q2 has; [reflexivity|].
  cbn [sh_go negb andb]. destruct (is_quote r); [reflexivity|].
  destruct (is_space r).
  - destruct has; apply IH.
  - apply IH.
Qed.

(* Parse resets the remembered quote character to 0 at a closing quote; outside
   quotes it is never read (sh_go_qc_irrel), so both sides can carry the same qc *)
Lemma sh_go_word s a rest args cur qc has : style_ok s a = true ->
  sh_go (quote s a ++ rest) args cur false qc has = sh_go rest args (cur ++ a) false qc true.
Proof.
  intros Hok. destruct s; cbn [quote style_ok] in *.
  - apply andb_true_iff in Hok as [Hne Hall].
    rewrite sh_go_bare_body by exact Hall. destruct a; [discriminate Hne | reflexivity].
  - cbn [app sh_go negb andb]. change (is_quote SQ) with true. cbv iota.
    rewrite <- app_assoc. cbn [app]. rewrite sh_go_sq_body by exact Hok. apply sh_go_qc_irrel.
  - cbn [app sh_go negb andb]. change (is_quote DQ) with true. cbv iota.
    rewrite <- app_assoc. cbn [app]. rewrite sh_go_dq_body. apply sh_go_qc_irrel.
Qed.

Definition all_ok (qs : list (style * str)) : bool :=
  forallb (fun q => style_ok (fst q) (snd q)) qs.

Lemma join_sp_cons w ws : ws <> [] -> join_sp (w :: ws) = w ++ SP :: join_sp ws.
Proof. destruct ws; [congruence | reflexivity]. Qed.

Lemma sh_go_roundtrip qs : forall args qc,
  all_ok qs = true ->
  sh_go (join_sp (quote_all qs)) args [] false qc false = Some (args ++ map snd qs).
Proof.
  induction qs as [|[s a] qs IH]; intros args qc Hok.
  - cbn. now rewrite app_nil_r.
  - apply forallb_cons in Hok as [Hw Hrest]. cbn [fst snd] in Hw.
    cbn [quote_all map snd].
    destruct qs as [|q2 qs'].
    + cbn [quote_all join_sp]. rewrite <- (app_nil_r (quote s a)), sh_go_word by exact Hw. reflexivity.
    + rewrite join_sp_cons by (destruct q2; discriminate).
      rewrite sh_go_word by exact Hw. cbn [app sh_go negb andb]. change (is_quote SP) with false.
      change (is_space SP) with true. cbv iota.
      rewrite (IH (args ++ [a]) qc Hrest), <- app_assoc. reflexivity.
Qed.

(* a backslash step consumes two code points, hence induction on the length *)
Lemma sh_go_none_iff rs : forall args cur inq qc has,
  sh_go rs args cur inq qc has = None <-> open_quote rs inq qc = true.
Proof.
  induction rs as [rs IH] using (induction_ltof1 _ (@length N)). unfold ltof in IH.
  intros args cur inq qc has. destruct rs as [|r rs].
  { cbn. destruct inq, has; split; intro HH; (discriminate HH || reflexivity). }
  assert (IH1 := IH rs (Nat.lt_succ_diag_r _)).
  cbn [sh_go open_quote]. destruct inq; cbn [negb andb].
  - destruct (r =? qc); [apply IH1|].
    destruct (r =? BS); cbn [andb]; [|apply IH1].
    destruct rs as [|nx rs'].
    { destruct (qc =? DQ); cbn; split; reflexivity. }
    destruct (qc =? DQ) eqn:EQ; [|apply IH1].
    apply N.eqb_eq in EQ. subst qc. change (DQ =? DQ) with true. cbv iota.
    destruct ((nx =? DQ) || (nx =? BS)); [apply IH; cbn; lia | apply IH1].
  - destruct (is_quote r); [apply IH1|].
    destruct (is_space r); [destruct has|]; apply IH1.
Qed.

Fixpoint no_trailing_bs (a : str) : bool :=
  match a with
  | [] => true
  | [c] => negb (c =? BS)
  | _ :: a' => no_trailing_bs a'
  end.

Definition head_not_blank (s : str) : bool :=
  match s with b :: _ => negb (is_blank b) | [] => true end.

Definition wf_flag (f : N * str) : bool :=
  negb (is_blank (fst f))
  && match snd f with d :: _ => negb (d =? DASH) | [] => true end
  && no_trailing_bs (snd f)
  && str_eqb (trim_space (pc_value f)) (pc_value f).

Lemma is_blank_BS : is_blank BS = false.  Proof. reflexivity. Qed.

Lemma no_trailing_bs_tail c a : no_trailing_bs (c :: a) = true -> no_trailing_bs a = true.
Proof. destruct a; [reflexivity | exact (fun H => H)]. Qed.

Lemma esc_head a rest : a <> [] -> head_not_blank (esc_blank a ++ rest) = true.
Proof.
  destruct a as [|c a]; [congruence|]. intros _. cbn [esc_blank].
  destruct (is_blank c) eqn:E; cbn [app head_not_blank]; [reflexivity | now rewrite E].
Qed.

Lemma pc_bs_content s res cur :
  head_not_blank s = true ->
  pc_go (BS :: s) (MContent false) res cur = pc_go s (MContent false) res (cur ++ [BS]).
Proof.
  intros H. destruct s as [|b2 s2]; [reflexivity|].
  cbn [head_not_blank] in H. apply negb_true_iff in H.
  cbn [pc_go]. rewrite is_blank_BS. cbn [andb]. change (BS =? BS) with true. cbv iota.
  now rewrite H.
Qed.

Lemma pc_go_content a : forall rest res cur,
  no_trailing_bs a = true ->
  pc_go (esc_blank a ++ rest) (MContent false) res cur
  = pc_go rest (MContent false) res (cur ++ a).
Proof.
  induction a as [|c a IH]; intros rest res cur H.
  - cbn [esc_blank app]. now rewrite app_nil_r.
  - pose proof (no_trailing_bs_tail c a H) as H'.
    cbn [esc_blank]. destruct (is_blank c) eqn:EC.
    + cbn [app pc_go]. rewrite is_blank_BS. cbn [andb]. change (BS =? BS) with true.
      cbv iota. rewrite EC. rewrite IH, app_assoc1 by exact H'. reflexivity.
    + destruct (c =? BS) eqn:EB.
      * apply N.eqb_eq in EB. subst c. cbn [app].
        rewrite pc_bs_content by (apply esc_head; intros ->; discriminate H).
        rewrite IH, app_assoc1 by exact H'. reflexivity.
      * cbn [app pc_go]. rewrite EC. cbn [andb]. rewrite EB.
        rewrite IH, app_assoc1 by exact H'. reflexivity.
Qed.

Lemma pc_skip_content b s res cur : is_blank b = false -> (b =? DASH) = false ->
  pc_go (b :: s) MSkip res cur = pc_go (b :: s) (MContent false) res cur.
Proof. intros Hb Hd. cbn [pc_go andb]. now rewrite Hb, Hd. Qed.

(* what follows a rendered flag: nothing, or " " and the next rendered flag *)
Fixpoint sep_rest (fs : list (N * str)) : str :=
  match fs with
  | [] => []
  | f :: fs' => SP :: pc_render f ++ sep_rest fs'
  end.

Lemma join_render f fs : join_sp (map pc_render (f :: fs)) = pc_render f ++ sep_rest fs.
Proof.
  revert f; induction fs as [|g fs IH]; intros f.
  - cbn. now rewrite app_nil_r.
  - change (map pc_render (f :: g :: fs)) with (pc_render f :: map pc_render (g :: fs)).
    rewrite join_sp_cons by discriminate. rewrite IH. reflexivity.
Qed.

Lemma pc_flush_stable res f : wf_flag f = true -> pc_flush res (pc_value f) = res ++ [pc_value f].
Proof.
  unfold wf_flag. rewrite !andb_true_iff. intros [_ H]. apply str_eqb_eq in H. unfold pc_flush.
  destruct (pc_value f) eqn:E; [discriminate E|]. now rewrite H.
Qed.

(* the first content byte (or the backslash escaping it) is neither a blank nor
   '-', so after the flag character it is read as inside the content *)
Lemma pc_go_flag c a rest res : wf_flag (c, a) = true ->
  exists m, (m = MSkip \/ m = MContent false) /\
    pc_go (esc_blank a ++ rest) MSkip res [DASH; c] = pc_go rest m res (pc_value (c, a)).
Proof.
  unfold wf_flag. cbn [fst snd]. rewrite !andb_true_iff. intros [[[_ Hd] Hbs] _].
  destruct a as [|d a'].
  - exists MSkip. split; [now left | reflexivity].
  - exists (MContent false). split; [now right|].
    etransitivity; [|exact (pc_go_content (d :: a') rest res [DASH; c] Hbs)].
    apply negb_true_iff in Hd. cbn [esc_blank].
    destruct (is_blank d) eqn:EC; cbn [app]; apply pc_skip_content; (reflexivity || assumption).
Qed.

Lemma pc_go_next_flag m c s res cur : m = MSkip \/ m = MContent false ->
  pc_go (SP :: DASH :: c :: s) m res cur = pc_go s MSkip (pc_flush res cur) [DASH; c].
Proof. intros [-> | ->]; reflexivity. Qed.

Lemma pc_go_flags fs : forall c a res,
  wf_flag (c, a) = true -> forallb wf_flag fs = true ->
  pc_go (esc_blank a ++ sep_rest fs) MSkip res [DASH; c]
  = res ++ pc_value (c, a) :: map pc_value fs.
Proof.
  induction fs as [|[c2 a2] fs IH]; intros c a res Hw Hfs.
  - destruct (pc_go_flag c a (sep_rest []) res Hw) as [m [Hm ->]].
    cbn [sep_rest map]. rewrite <- (pc_flush_stable res _ Hw). now destruct Hm as [-> | ->].
  - destruct (pc_go_flag c a (sep_rest ((c2, a2) :: fs)) res Hw) as [m [Hm ->]].
    apply forallb_cons in Hfs as [Hw2 Hfs].
    cbn [sep_rest]. unfold pc_render at 1. cbn [fst snd app].
    rewrite pc_go_next_flag, (pc_flush_stable res _ Hw), IH by assumption.
    apply app_assoc1.
Qed.

Lemma mem_str_In x l : mem_str x l = true <-> In x l.
Proof. apply existsb_eqb_In, str_eqb_iff. Qed.

Lemma dedup_spec l : forall seen,
  NoDup (dedup l seen)
  /\ (forall x, In x (dedup l seen) <-> In x l /\ ~ In x seen).
Proof.
  induction l as [|y l IH]; intros seen; cbn [dedup].
  - split; [constructor | intros x; cbn; tauto].
  - destruct (mem_str y seen) eqn:E.
    + apply mem_str_In in E. destruct (IH seen) as [ND Hin]. split; [exact ND|].
      intros x. rewrite Hin. cbn [In]. intuition (subst; contradiction).
    + assert (Hn : ~ In y seen) by (rewrite <- mem_str_In; congruence).
      destruct (IH (y :: seen)) as [ND Hin]. split.
      * constructor; [rewrite Hin; cbn; tauto | exact ND].
      * intros x. cbn [In]. rewrite Hin. cbn [In].
        destruct (list_eq_dec N.eq_dec y x) as [<- | Hne]; tauto.
Qed.

(* FieldsFunc's flush of the current field *)
Lemma Forall_flush {A} (P : list A -> Prop) cur acc :
  Forall P acc -> (cur <> [] -> P cur) ->
  Forall P (match cur with [] => acc | _ => acc ++ [cur] end).
Proof.
  intros Ha Hc. destruct cur; [exact Ha|]. apply Forall_app. split; [exact Ha|].
  constructor; [apply Hc; discriminate | constructor].
Qed.

Lemma fields_go_ok s : forall cur acc,
  Forall (fun t => t <> [] /\ forallb (fun b => negb (tag_sep b)) t = true) acc ->
  forallb (fun b => negb (tag_sep b)) cur = true ->
  Forall (fun t => t <> [] /\ forallb (fun b => negb (tag_sep b)) t = true) (fields_go s cur acc).
Proof.
  induction s as [|b s IH]; intros cur acc Ha Hc; cbn [fields_go].
  - apply Forall_flush; [exact Ha | now split].
  - destruct (tag_sep b) eqn:E.
    + apply IH; [|reflexivity]. apply Forall_flush; [exact Ha | now split].
    + apply IH; [exact Ha|]. rewrite forallb_app, Hc. cbn. now rewrite E.
Qed.

(* a template made of literal bytes free of braces and references to one key
   expands to the literals with the value in place of each reference *)
Inductive seg := Lit (b : N) | Ref.

Definition seg_ok (s : seg) : bool :=
  match s with Lit b => negb (b =? LB) && negb (b =? RB) | Ref => true end.

Fixpoint render_t (k : str) (t : list seg) : str :=
  match t with
  | [] => []
  | Lit b :: t' => b :: render_t k t'
  | Ref :: t' => brace k ++ render_t k t'
  end.

Fixpoint subst_t (v : str) (t : list seg) : str :=
  match t with
  | [] => []
  | Lit b :: t' => b :: subst_t v t'
  | Ref :: t' => v ++ subst_t v t'
  end.

Lemma strip_prefix_app p s : strip_prefix p (p ++ s) = Some s.
Proof. induction p as [|a p IH]; cbn; [reflexivity|]. now rewrite N.eqb_refl. Qed.

Lemma replace_all_render k v t : forall fuel,
  forallb seg_ok t = true ->
  (fuel > length (render_t k t))%nat ->
  replace_all fuel (brace k) v (render_t k t) = subst_t v t.
Proof.
  induction t as [|sg t IH]; intros fuel Hok Hf.
  - destruct fuel; reflexivity.
  - apply forallb_cons in Hok as [Hs Hok].
    destruct fuel as [|fuel]; [lia|].
    destruct sg as [b|].
    + cbn [render_t subst_t replace_all]. cbn [render_t length] in Hf.
      cbn [seg_ok] in Hs. apply andb_true_iff in Hs as [H1 H2].
      apply negb_true_iff in H1.
      unfold brace at 1. cbn [strip_prefix]. rewrite N.eqb_sym, H1.
      rewrite IH by (assumption || lia). reflexivity.
    + cbn [render_t subst_t]. cbn [render_t] in Hf.
      assert (Hlen : (length (brace k ++ render_t k t) > length (render_t k t))%nat).
      { rewrite app_length. unfold brace. cbn [length]. lia. }
      remember (brace k ++ render_t k t) as s eqn:Es.
      destruct s as [|b s']; [unfold brace in Es; discriminate Es|].
      cbn [replace_all]. rewrite Es, strip_prefix_app.
      unfold brace at 1. rewrite IH; [reflexivity | assumption | lia].
Qed.

Lemma index_of_app_notin c a b :
  forallb (fun x => negb (x =? c)) a = true ->
  index_of c (a ++ c :: b) = Some (length a).
Proof.
  induction a as [|x a IH]; intros H; cbn [app index_of length].
  - now rewrite N.eqb_refl.
  - apply forallb_cons in H as [H1 H2]. apply negb_true_iff in H1.
    rewrite H1, (IH H2). reflexivity.
Qed.

Lemma last_index_of_none c a :
  forallb (fun x => negb (x =? c)) a = true -> last_index_of c a = None.
Proof.
  induction a as [|x a IH]; intros H; cbn; [reflexivity|].
  apply forallb_cons in H as [H1 H2]. apply negb_true_iff in H1.
  now rewrite (IH H2), H1.
Qed.

Lemma last_index_of_app c a b :
  forallb (fun x => negb (x =? c)) b = true ->
  last_index_of c (a ++ c :: b) = Some (length a).
Proof.
  intros Hb. induction a as [|x a IH]; cbn [app last_index_of length].
  - rewrite (last_index_of_none c b Hb), N.eqb_refl. reflexivity.
  - now rewrite IH.
Qed.

Lemma firstn_S_app {A} (a : list A) x b : firstn (S (length a)) (a ++ x :: b) = a ++ [x].
Proof. rewrite <- (app_assoc1 a x b), <- (last_length a x). apply firstn_app_exact. Qed.

Lemma skipn_S_app {A} (a : list A) x b : skipn (S (length a)) (a ++ x :: b) = b.
Proof. rewrite <- (app_assoc1 a x b), <- (last_length a x). apply skipn_app_exact. Qed.

Lemma xflag_split_join pkg name value :
  forallb (fun x => negb (x =? EQ)) pkg = true ->
  forallb (fun x => negb (x =? EQ)) name = true ->
  forallb (fun x => negb (x =? DOT)) name = true ->
  xflag_split (pkg ++ DOT :: name ++ EQ :: value) = Some (pkg, name, value).
Proof.
  intros Hp Hn Hd. unfold xflag_split.
  set (arg := pkg ++ DOT :: name ++ EQ :: value). set (pn := pkg ++ DOT :: name).
  assert (E : arg = pn ++ EQ :: value) by (unfold arg, pn; now rewrite <- app_assoc).
  assert (Hi : index_of EQ arg = Some (length pn)).
  { rewrite E. apply index_of_app_notin. unfold pn. rewrite forallb_app, Hp. cbn [forallb]. now rewrite Hn. }
  assert (Hf : firstn (S (length pn)) arg = pkg ++ DOT :: (name ++ [EQ])).
  { rewrite E, firstn_S_app. unfold pn. now rewrite <- app_assoc. }
  rewrite Hi, Hf, last_index_of_app by (now rewrite forallb_app, Hd).
  f_equal. f_equal; [f_equal|].
  - apply firstn_app_exact.
  - unfold arg. rewrite skipn_S_app.
    replace (length pn - S (length pkg))%nat with (length name) by (unfold pn; rewrite app_length; cbn; lia).
    apply firstn_app_exact.
  - rewrite E. apply skipn_S_app.
Qed.
