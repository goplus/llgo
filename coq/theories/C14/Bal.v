(* C14 - the rendering of type arguments (abi.TypeArgs) is bracket-balanced *)
From LLGoV Require Import C07.Model C07.PStr C14.Model.
Local Open Scope N_scope.

(* neutral for bal: at every depth and before every continuation *)
Definition balanced (s : str) : Prop := forall d r, bal d (s ++ r) = bal d r.

Lemma balanced_nil : balanced [].
Proof. intros d r. reflexivity. Qed.
Lemma balanced_app a b : balanced a -> balanced b -> balanced (a ++ b).
Proof. intros A B d r. now rewrite <- app_assoc, A, B. Qed.
Lemma balanced_brackets b : balanced b -> balanced ([c_lb] ++ b ++ [c_rb]).
Proof. intros B d r. cbn. rewrite <- app_assoc, B. reflexivity. Qed.
Lemma balanced_bal s : balanced s -> bal 0 s = true.
Proof. intros B. rewrite <- (app_nil_r s), B. reflexivity. Qed.

Definition nobr_c (c : N) : bool := negb (c =? c_lb) && negb (c =? c_rb).
Definition nobr (s : str) : bool := forallb nobr_c s.
Lemma nobr_balanced s : nobr s = true -> balanced s.
Proof.
  induction s as [|c s IH]; intros H d r; [reflexivity|]. cbn in *.
  apply andb_prop in H as [C R]. unfold nobr_c in C. apply andb_prop in C as [C1 C2].
  apply negb_true_iff in C1, C2. rewrite C1, C2. now apply IH.
Qed.
Lemma nobr_app a b : nobr (a ++ b) = nobr a && nobr b.
Proof. apply forallb_app. Qed.

Lemma digits_nobr s : forallb is_digit s = true -> nobr s = true.
Proof.
  unfold nobr. rewrite !forallb_forall. intros H c I. specialize (H c I).
  apply is_digit_range in H. unfold nobr_c, c_lb, c_rb.
  destruct (c =? 91) eqn:E1; [apply N.eqb_eq in E1; lia|].
  destruct (c =? 93) eqn:E2; [apply N.eqb_eq in E2; lia|]. reflexivity.
Qed.
Lemma dec_nobr n : nobr (dec n) = true.
Proof. apply digits_nobr, dec_digits. Qed.

Lemma basic_names_nobr : forallb nobr basic_names = true.
Proof. reflexivity. Qed.
Lemma basic_name_nobr k : nobr (basic_name k) = true.
Proof.
  unfold basic_name. destruct (nth_in_or_default (N.to_nat k) basic_names []) as [I|E].
  - pose proof basic_names_nobr as H. rewrite forallb_forall in H. auto.
  - rewrite E. reflexivity.
Qed.

Lemma strip_prefix_suffix : forall a p r, strip_prefix a p = Some r -> exists x, p = x ++ r.
Proof.
  induction a as [|c a IH]; intros p r H; cbn in H.
  - injection H as ->. exists []. reflexivity.
  - destruct p as [|b p]; [discriminate|]. destruct (c =? b); [|discriminate].
    destruct (IH _ _ H) as (x & ->). exists (b :: x). reflexivity.
Qed.
Lemma path_of_nobr p : nobr p = true -> nobr (path_of p) = true.
Proof.
  intros H. unfold path_of. destruct (strip_prefix s_patch p) as [r|] eqn:E; auto.
  destruct (strip_prefix_suffix _ _ _ E) as (x & ->). rewrite nobr_app in H. now apply andb_true_iff in H as [_ H].
Qed.

Lemma ids_str_nobr ids : nobr (ids_str ids) = true.
Proof.
  induction ids as [|i r IH]; [reflexivity|].
  change (ids_str (i :: r)) with (([c_dot] ++ dec i) ++ ids_str r).
  rewrite !nobr_app, dec_nobr, IH. reflexivity.
Qed.
Lemma scope_str_nobr pkg sc : nobr (scope_str pkg sc) = true.
Proof.
  destruct pkg, sc; cbn; auto using ids_str_nobr.
  destruct (p =? 0); [reflexivity|]. change (nobr ([c_dot; c_p] ++ dec p) = true). rewrite nobr_app, dec_nobr. reflexivity.
Qed.
Lemma dir_str_nobr d : nobr (dir_str d) = true.
Proof. destruct d; reflexivity. Qed.

(* the guard: names and paths inside the type arguments carry no square bracket *)
Fixpoint nobr_ty (t : ty) : bool :=
  match t with
  | TNamed pkg name targs _ =>
      nobr name && (match pkg with Some p => nobr p | None => true end) && nobr_tys targs
  | TPtr e | TSlice e | TArray _ e | TChan _ e => nobr_ty e
  | TMap k e => nobr_ty k && nobr_ty e
  | _ => true
  end
with nobr_tys (ts : tys) : bool :=
  match ts with TsNil => true | TsCons _ t r => nobr_ty t && nobr_tys r end.

Lemma join_comma_cons x r : join_comma (x :: r) = match r with [] => x | _ => x ++ [c_comma] ++ join_comma r end.
Proof. destruct r; reflexivity. Qed.

Lemma balanced_brackets_then b r : balanced b -> balanced r -> balanced ([c_lb] ++ b ++ [c_rb] ++ r).
Proof.
  intros B R. rewrite 2!app_assoc. apply balanced_app; [|exact R].
  rewrite <- app_assoc. now apply balanced_brackets.
Qed.
Lemma balanced_cons c r : nobr_c c = true -> balanced r -> balanced (c :: r).
Proof. intros C R. apply (balanced_app [c]); [apply nobr_balanced; cbn; now rewrite C|exact R]. Qed.

(* a rendering is put together from bracket-free pieces and bracketed balanced ones *)
Create HintDb bal.
#[local] Hint Resolve balanced_nil balanced_app balanced_brackets balanced_brackets_then balanced_cons
  nobr_balanced dec_nobr basic_name_nobr path_of_nobr scope_str_nobr dir_str_nobr : bal.
#[local] Hint Extern 1 (nobr _ = true) => reflexivity : bal.
#[local] Hint Extern 1 (nobr_c _ = true) => reflexivity : bal.

Lemma targ_balanced_all :
  (forall t, nobr_ty t = true -> balanced (targ_str t)) /\
  (forall ts, nobr_tys ts = true -> balanced (join_comma (targs_strs ts))) /\
  (forall fs : fields, True) /\ (forall ms : methods, True).
Proof.
  apply ty_mutind; try (intros; exact I); cbn [nobr_ty nobr_tys targ_str targs_strs].
  - (* TBasic: one of four bracket-free words (nobr_balanced, basic_name_nobr) *)
    intros k alias _. destruct (k =? 18), (alias && (k =? 8)), (alias && (k =? 5)); auto with bal.
  - (* TNamed: [path.]name[targs]scope by balanced_app; the path by path_of_nobr, the arguments by
       balanced_brackets and the induction hypothesis, the scope by scope_str_nobr *)
    intros pkg name targs IHtargs sc G. apply andb_prop in G as [G Gt]. apply andb_prop in G as [Gn Gp].
    destruct pkg, targs; auto 8 with bal.
  - (* TPtr: balanced_cons *) intros e IHe G. auto with bal.
  - (* TSlice: balanced_brackets_then around the empty text *)
    intros e IHe G. change [c_lb; c_rb] with ([c_lb] ++ [] ++ [c_rb]). auto with bal.
  - (* TArray: balanced_brackets_then around the length (dec_nobr) *) intros n e IHe G. auto with bal.
  - (* TMap: "map" then balanced_brackets_then around the key *)
    intros k IHk e IHe G. apply andb_prop in G as [Gk Ge].
    change s_map with ([109; 97; 112] ++ [c_lb]). rewrite <- app_assoc. auto 6 with bal.
  - (* TChan: direction, blank, then the element, in parentheses exactly for chan (<-chan T) *)
    intros d e IHe G.
    assert (Bp : balanced ([c_lp] ++ targ_str e ++ [c_rp])) by auto 6 with bal.
    apply balanced_app; [apply nobr_balanced, dir_str_nobr|].
    apply (balanced_app [c_sp]); [apply nobr_balanced; reflexivity|].
    destruct d; [|exact (IHe G)..]. destruct e; try exact (IHe G). destruct d; [exact (IHe G)..|exact Bp].
  - (* TFunc: the fallback text *) intros. auto with bal.
  - (* TStruct *) intros. auto with bal.
  - (* TIface *) intros. auto with bal.
  - (* TsNil *) intros _. apply balanced_nil.
  - (* TsCons: the first argument, then a comma and the rest unless the rest is empty *)
    intros name t IHt r IHr G. apply andb_prop in G as [Gt Gr]. rewrite join_comma_cons.
    destruct (targs_strs r); auto 6 with bal.
Qed.

Lemma targs_text_ok ts : nobr_tys ts = true -> ok_targs (targs_text ts) = true.
Proof.
  intros H. destruct ts; cbn [targs_text ok_targs]; auto.
  apply balanced_bal. now apply (proj1 (proj2 targ_balanced_all)).
Qed.
