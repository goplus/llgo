(* C14 - proofs: the link name determines the entity (string level).
   A name is read back piece by piece: each piece is either free of some class of characters
   and followed by a character of that class (C07.PStr.split_first), or a bracket-balanced
   text followed by its closing bracket (bal_split). *)
From Coq Require Import Ascii String.
From LLGoV Require Import C07.Model C07.PStr C14.Model C14.Bal.
Local Open Scope N_scope.

Definition nonpath (c : N) : bool := negb (path_char c).
Definition nonident (c : N) : bool := negb (ident_char c).
Definition nondigit (c : N) : bool := negb (is_digit c).
Definition is_lb (c : N) : bool := c =? c_lb.

Lemma free_neg (f : N -> bool) a : forallb f a = true -> free (fun c => negb (f c)) a.
Proof. apply forallb_free. now intros c ->. Qed.

Lemma free_dot D a b : D c_dot = false -> free D a -> free D b -> free D (a ++ [c_dot] ++ b).
Proof. intros Dd A B. apply free_app. split; [exact A|]. apply free_cons. auto. Qed.

Lemma headD_weaken (D D' : N -> bool) r : (forall c, D c = true -> D' c = true) -> headD D r -> headD D' r.
Proof. destruct r; cbn; auto. Qed.

Lemma nonpath_nonident c : nonpath c = true -> nonident c = true.
Proof.
  unfold nonpath, nonident, path_char. destruct (ident_char c); [discriminate|reflexivity].
Qed.
Lemma slash_nonident c : is_slash c = true -> nonident c = true.
Proof. intros E. apply N.eqb_eq in E. now subst. Qed.

Lemma wf_ident_free s : wf_ident s = true -> free nonident s.
Proof.
  unfold wf_ident. destruct s as [|c s]; [discriminate|]. intros F. apply andb_prop in F as [_ F].
  now apply free_neg.
Qed.
Lemma wf_ident_head s : wf_ident s = true -> exists c r, s = c :: r /\ ident_char c = true.
Proof.
  unfold wf_ident. destruct s as [|c s]; [discriminate|]. intros F. apply andb_prop in F as [_ F].
  apply andb_prop in F as [F _]. eauto.
Qed.
Lemma wf_ident_pathfree s : wf_ident s = true -> free nonpath s /\ free is_slash s.
Proof.
  intros W. apply wf_ident_free in W. split.
  - eapply free_weaken; [|exact W]. apply nonpath_nonident.
  - eapply free_weaken; [|exact W]. apply slash_nonident.
Qed.

Lemma ident_split a1 a2 r1 r2 :
  wf_ident a1 = true -> wf_ident a2 = true -> headD nonident r1 -> headD nonident r2 ->
  a1 ++ r1 = a2 ++ r2 -> a1 = a2 /\ r1 = r2.
Proof. intros. apply (split_first nonident); auto using wf_ident_free. Qed.

Lemma wf_path_parts p : wf_path p = true ->
  forallb path_char p = true /\ last_elem_nodot p true = true /\ path_of p = p.
Proof.
  unfold wf_path. intros W. apply andb_prop in W as [W C]. apply andb_prop in W as [W B].
  apply andb_prop in W as [_ A]. repeat split; auto.
  unfold path_of. destruct (strip_prefix s_patch p); [discriminate|reflexivity].
Qed.
Lemma wf_path_head q : wf_path q = true -> exists c r, q = c :: r /\ path_char c = true.
Proof.
  intros W. destruct (wf_path_parts _ W) as (C & _ & _). destruct q as [|c r]; [discriminate|].
  apply andb_prop in C as [C _]. eauto.
Qed.

(* The package path cannot be cut off where it ends: the dot after it is a path character and so
   may be what follows.  It is cut where the path characters end (split_first nonpath), which is
   inside the rest of the name: w is that run of path characters after the dot, r what follows
   it.  Then the dot is found as the first one after the last slash (path_cut), for which w must
   contain no slash.  shape_wr gives w and r for the names of entities. *)
Lemma path_split p1 p2 w1 w2 r1 r2 :
  wf_path p1 = true -> wf_path p2 = true ->
  free nonpath w1 -> free is_slash w1 -> free nonpath w2 -> free is_slash w2 ->
  headD nonpath r1 -> headD nonpath r2 ->
  p1 ++ [c_dot] ++ w1 ++ r1 = p2 ++ [c_dot] ++ w2 ++ r2 ->
  p1 = p2 /\ w1 = w2 /\ r1 = r2.
Proof.
  intros W1 W2 Fp1 Fs1 Fp2 Fs2 H1 H2 E.
  destruct (wf_path_parts _ W1) as (C1 & L1 & _). destruct (wf_path_parts _ W2) as (C2 & L2 & _).
  apply free_neg in C1, C2.
  destruct (split_first nonpath (p1 ++ [c_dot] ++ w1) (p2 ++ [c_dot] ++ w2) r1 r2) as [E1 ->];
    auto using free_dot. { now rewrite <- !app_assoc. }
  destruct (path_cut _ _ _ _ _ L1 L2 Fs1 Fs2 E1) as [-> ->]. auto.
Qed.

(* balanced brackets: the closing bracket of a type-argument list is found *)

Lemma bal_split : forall b1 b2 d r1 r2,
  bal d b1 = true -> bal d b2 = true ->
  b1 ++ [c_rb] ++ r1 = b2 ++ [c_rb] ++ r2 -> b1 = b2 /\ r1 = r2.
Proof.
  induction b1 as [|x b1 IH]; intros [|y b2] d r1 r2 B1 B2 E; cbn in E.
  - injection E as ->. auto.
  - injection E as <- E. destruct d; discriminate.
  - injection E as -> E. destruct d; discriminate.
  - injection E as -> E. cbn in B1, B2.
    destruct (y =? c_lb); [|destruct (y =? c_rb); [destruct d; [discriminate|]|]];
      destruct (IH _ _ _ _ B1 B2 E) as [-> ->]; auto.
Qed.

Lemma brk_split ta1 ta2 c z1 z2 :
  ok_targs ta1 = true -> ok_targs ta2 = true -> c <> c_lb ->
  brk ta1 ++ [c] ++ z1 = brk ta2 ++ [c] ++ z2 -> ta1 = ta2 /\ z1 = z2.
Proof.
  intros O1 O2 Nc E. destruct ta1 as [b1|], ta2 as [b2|]; cbn in E.
  - injection E as E. rewrite <- !app_assoc in E.
    destruct (bal_split _ _ _ _ _ O1 O2 E) as [-> E2]. injection E2 as ->. auto.
  - congruence.
  - congruence.
  - injection E as ->. auto.
Qed.

Lemma brk_inj ta1 ta2 : brk ta1 = brk ta2 -> ta1 = ta2.
Proof.
  destruct ta1 as [b1|], ta2 as [b2|]; cbn; intros E; try discriminate; auto.
  injection E as E. apply app_inv_tail in E. now subst.
Qed.

Lemma brk_head ta : headD is_lb (brk ta).
Proof. destruct ta; cbn; auto. Qed.
Lemma brk_then_head ta c z : nonident c = true -> headD nonident (brk ta ++ [c] ++ z).
Proof. destruct ta; cbn; auto. Qed.
Lemma brk_rp_head ta z : headD nonpath (brk ta ++ [c_rp] ++ z).
Proof. destruct ta; reflexivity. Qed.

Lemma digit_nondigit_excl c : is_digit c = true -> nondigit c = false.
Proof. unfold nondigit. now intros ->. Qed.

Lemma clos_head cl r : headD is_lb r -> headD nondigit (clos_str cl ++ r).
Proof.
  destruct cl as [|i cl]; cbn.
  - destruct r as [|c r]; cbn; auto. intros E. apply N.eqb_eq in E. now subst.
  - reflexivity.
Qed.

Lemma clos_inj : forall cl1 cl2 r1 r2, headD is_lb r1 -> headD is_lb r2 ->
  clos_str cl1 ++ r1 = clos_str cl2 ++ r2 -> cl1 = cl2 /\ r1 = r2.
Proof.
  induction cl1 as [|i cl1 IH]; intros [|j cl2] r1 r2 H1 H2 E; cbn in E.
  - auto.
  - subst r1. discriminate.
  - subst r2. discriminate.
  - injection E as E. rewrite <- !app_assoc in E.
    destruct (dec_split nondigit i j _ _ digit_nondigit_excl (clos_head cl1 r1 H1) (clos_head cl2 r2 H2) E) as [-> E2].
    destruct (IH _ _ _ H1 H2 E2) as [-> ->]. auto.
Qed.

(* the normal form of a name after the package path *)

Inductive sfx :=
| SClos (cl : list N) (ta : option str)    (* $i$j... then [targs] *)
| SWk (k : wkind)                         (* $thunk, $bound *)
| SHash (n : N).                          (* #n *)

Definition sfx_str (s : sfx) : str :=
  match s with
  | SClos cl ta => clos_str cl ++ brk ta
  | SWk k => wk_str k
  | SHash n => [c_hash] ++ dec n
  end.
Definition sfx_ok (s : sfx) : Prop := match s with SClos _ ta => ok_targs ta = true | _ => True end.

Lemma wk_str_inj k1 k2 : wk_str k1 = wk_str k2 -> k1 = k2.
Proof. destruct k1, k2; cbn; intros E; try discriminate; auto. Qed.

Lemma clos_not_wk cl ta k : clos_str cl ++ brk ta = wk_str k -> False.
Proof.
  destruct cl as [|i cl]; cbn.
  - destruct ta, k; cbn; discriminate.
  - destruct (dec_head i) as (c & r & -> & D). intros E.
    destruct k; cbn in E; inversion E; subst c; discriminate.
Qed.

Lemma sfx_inj s1 s2 : sfx_str s1 = sfx_str s2 -> s1 = s2.
Proof.
  destruct s1 as [cl1 ta1|k1|n1], s2 as [cl2 ta2|k2|n2]; cbn; intros E.
  - destruct (clos_inj cl1 cl2 _ _ (brk_head ta1) (brk_head ta2) E) as [-> E2].
    apply brk_inj in E2. now subst.
  - exfalso. eapply clos_not_wk; eauto.
  - exfalso. destruct cl1; cbn in E; [destruct ta1; cbn in E|]; discriminate.
  - exfalso. eapply clos_not_wk; eauto.
  - f_equal. now apply wk_str_inj.
  - exfalso. destruct k1; discriminate.
  - exfalso. destruct cl2; cbn in E; [destruct ta2; cbn in E|]; discriminate.
  - exfalso. destruct k2; discriminate.
  - injection E as E. apply dec_inj in E. now subst.
Qed.

Lemma sfx_head_nonpath s : headD nonpath (sfx_str s).
Proof.
  destruct s as [cl ta|k|n]; cbn.
  - destruct cl; cbn; [destruct ta; cbn; auto|reflexivity].
  - destruct k; reflexivity.
  - reflexivity.
Qed.
Lemma sfx_head s : headD nonident (sfx_str s).
Proof. exact (headD_weaken _ _ _ nonpath_nonident (sfx_head_nonpath s)). Qed.

(* a suffix never looks like the rest of a receiver: [targs] then a dot *)
Lemma sfx_not_recv_rest s ta y : sfx_ok s -> ok_targs ta = true ->
  sfx_str s = brk ta ++ [c_dot] ++ y -> False.
Proof.
  intros O1 O2 E. destruct s as [cl ta1|k|n]; cbn in E.
  - destruct cl as [|i cl]; cbn in E.
    + destruct ta1 as [b1|], ta as [b|]; cbn in E; try discriminate.
      injection E as E.
      assert (E' : b1 ++ [c_rb] ++ [] = b ++ [c_rb] ++ [c_dot] ++ y) by (rewrite <- app_assoc in E; exact E).
      destruct (bal_split _ _ _ _ _ O1 O2 E') as [_ X]. discriminate.
    + destruct ta; cbn in E; discriminate.
  - destruct k, ta; cbn in E; discriminate.
  - destruct ta; cbn in E; discriminate.
Qed.

(* receiver of a method or wrapper: pointer?, qualifying package path (fixed wrappers for a
   foreign receiver type only), type name, text of the type arguments *)
Definition rcv := (bool * option str * str * option str)%type.
Record shape := Shape { sh_recv : option rcv; sh_name : str; sh_sfx : sfx }.

Definition rcv_str (r : rcv) : str :=
  match r with
  | (ptr, None, t, ta) => recv_str ptr t ta
  | (ptr, Some q, t, ta) => qrecv_str ptr q t ta
  end.
Definition recv_part (r : option rcv) : str :=
  match r with None => [] | Some r => rcv_str r ++ [c_dot] end.
Definition shape_str (s : shape) : str := recv_part (sh_recv s) ++ sh_name s ++ sfx_str (sh_sfx s).
Definition q_ok (q : option str) : Prop := match q with None => True | Some q => wf_path q = true end.
Definition rcv_ok (r : rcv) : Prop :=
  match r with (_, q, t, ta) => wf_ident t = true /\ ok_targs ta = true /\ q_ok q end.
Definition recv_ok (r : option rcv) : Prop := match r with None => True | Some r => rcv_ok r end.
Definition shape_ok (s : shape) : Prop :=
  recv_ok (sh_recv s) /\ wf_ident (sh_name s) = true /\ sfx_ok (sh_sfx s).

(* every receiver form is: opening signs, [q.]T, [targs], closing parenthesis if one was opened;
   the bare form T[targs] has no opening sign *)
Definition body (q : option str) (t : str) : str :=
  match q with None => t | Some q => q ++ [c_dot] ++ t end.
Definition opener (ptr : bool) (q : option str) : str :=
  if ptr then s_lpstar else match q with Some _ => [c_lp] | None => [] end.
Definition closer (ptr : bool) (q : option str) : str :=
  if ptr then [c_rp] else match q with Some _ => [c_rp] | None => [] end.

Lemma rcv_str_parts ptr q t ta :
  rcv_str (ptr, q, t, ta) = opener ptr q ++ body q t ++ brk ta ++ closer ptr q.
Proof.
  destruct ptr, q; cbn [rcv_str recv_str qrecv_str opener closer body];
    rewrite <- ?app_assoc, ?app_nil_r; reflexivity.
Qed.

Lemma rcv_cases r : rcv_ok r ->
  (exists t ta, wf_ident t = true /\ ok_targs ta = true /\ rcv_str r = t ++ brk ta)
  \/ (exists z, rcv_str r = c_lp :: z).
Proof.
  destruct r as [[[ptr q] t] ta]. intros (T & O & _). rewrite rcv_str_parts.
  destruct ptr; [|destruct q]; [right; eexists; reflexivity..|].
  left. exists t, ta. now rewrite app_nil_r.
Qed.

Lemma body_head q t z : q_ok q -> wf_ident t = true -> headD path_char (body q t ++ z).
Proof.
  destruct q as [q|]; cbn [body q_ok]; intros Q T.
  - destruct (wf_path_head _ Q) as (c & r & -> & C). exact C.
  - destruct (wf_ident_head _ T) as (c & r & -> & C). cbn. unfold path_char. now rewrite C.
Qed.

Lemma body_free q t : q_ok q -> wf_ident t = true -> free nonpath (body q t).
Proof.
  intros Q T. destruct (wf_ident_pathfree _ T) as [P _]. destruct q as [q|]; [|exact P].
  destruct (wf_path_parts _ Q) as (C & _ & _). apply free_neg in C. now apply free_dot.
Qed.

(* an identifier contains no dot, and a qualifying path is cut like the package path *)
Lemma body_inj q1 t1 q2 t2 : q_ok q1 -> q_ok q2 -> wf_ident t1 = true -> wf_ident t2 = true ->
  body q1 t1 = body q2 t2 -> q1 = q2 /\ t1 = t2.
Proof.
  intros Q1 Q2 T1 T2 E. pose proof (wf_ident_free _ T1) as F1. pose proof (wf_ident_free _ T2) as F2.
  destruct q1 as [q1|], q2 as [q2|]; cbn [body q_ok] in *.
  - destruct (wf_path_parts _ Q1) as (_ & L1 & _). destruct (wf_path_parts _ Q2) as (_ & L2 & _).
    destruct (path_cut _ _ _ _ _ L1 L2 (proj2 (wf_ident_pathfree _ T1)) (proj2 (wf_ident_pathfree _ T2)) E)
      as [-> ->]. auto.
  - exfalso. rewrite <- E in F2. apply free_app in F2 as [_ F2]. discriminate.
  - exfalso. rewrite E in F1. apply free_app in F1 as [_ F1]. discriminate.
  - auto.
Qed.

Lemma paren_inj q1 t1 ta1 y1 q2 t2 ta2 y2 :
  q_ok q1 -> q_ok q2 -> wf_ident t1 = true -> wf_ident t2 = true ->
  ok_targs ta1 = true -> ok_targs ta2 = true ->
  body q1 t1 ++ brk ta1 ++ [c_rp] ++ y1 = body q2 t2 ++ brk ta2 ++ [c_rp] ++ y2 ->
  q1 = q2 /\ t1 = t2 /\ ta1 = ta2 /\ y1 = y2.
Proof.
  intros Q1 Q2 T1 T2 O1 O2 E.
  apply (split_first nonpath) in E as [E1 E2]; auto using body_free, brk_rp_head.
  destruct (body_inj _ _ _ _ Q1 Q2 T1 T2 E1) as [-> ->].
  destruct (brk_split ta1 ta2 c_rp _ _ O1 O2 ltac:(discriminate) E2) as [-> ->]. auto.
Qed.

(* the opening signs are no path characters and what follows them starts with one, so equal
   texts have equal opening signs *)
Lemma rcv_inj r1 y1 r2 y2 : rcv_ok r1 -> rcv_ok r2 ->
  rcv_str r1 ++ [c_dot] ++ y1 = rcv_str r2 ++ [c_dot] ++ y2 -> r1 = r2 /\ y1 = y2.
Proof.
  destruct r1 as [[[p1 q1] t1] ta1], r2 as [[[p2 q2] t2] ta2]. intros (T1 & O1 & Q1) (T2 & O2 & Q2) E.
  rewrite !rcv_str_parts, <- !app_assoc in E.
  apply (split_first path_char) in E as [Eo E1];
    [|destruct p1, q1; reflexivity|destruct p2, q2; reflexivity|now apply body_head|now apply body_head].
  destruct p1, p2; cbn [closer] in E1.
  - (* both start with "(*" *)
    destruct (paren_inj _ _ _ _ _ _ _ _ Q1 Q2 T1 T2 O1 O2 E1) as (-> & -> & -> & E2). injection E2 as ->. auto.
  - destruct q2; discriminate Eo.
  - destruct q1; discriminate Eo.
  - destruct q1 as [q1|], q2 as [q2|]; try discriminate Eo.
    + (* both start with "(" and are qualified *)
      destruct (paren_inj _ _ _ _ _ _ _ _ Q1 Q2 T1 T2 O1 O2 E1) as (-> & -> & -> & E2). injection E2 as ->. auto.
    + (* both bare: T[targs] then the dot *)
      destruct (ident_split t1 t2 _ _ T1 T2 (brk_then_head ta1 c_dot _ eq_refl) (brk_then_head ta2 c_dot _ eq_refl) E1) as [-> E2].
      destruct (brk_split ta1 ta2 c_dot _ _ O1 O2 ltac:(discriminate) E2) as [-> ->]. auto.
Qed.

Lemma recv_vs_name r n1 x1 n2 x2 :
  rcv_ok r -> wf_ident n2 = true -> sfx_ok x2 ->
  rcv_str r ++ [c_dot] ++ n1 ++ sfx_str x1 = n2 ++ sfx_str x2 -> False.
Proof.
  intros R N2 X2 E. destruct (rcv_cases _ R) as [(t & ta & T & O & Z)|(z & Z)]; rewrite Z in E.
  - rewrite <- !app_assoc in E.
    destruct (ident_split _ _ _ _ T N2 (brk_then_head ta c_dot _ eq_refl) (sfx_head x2) E) as [-> E2].
    symmetry in E2. exact (sfx_not_recv_rest x2 ta _ X2 O E2).
  - destruct (wf_ident_head _ N2) as (c & r' & -> & C). injection E as E _. subst c. discriminate.
Qed.

Lemma shape_inj s1 s2 : shape_ok s1 -> shape_ok s2 -> shape_str s1 = shape_str s2 -> s1 = s2.
Proof.
  destruct s1 as [r1 n1 x1], s2 as [r2 n2 x2]. unfold shape_ok, shape_str. cbn [sh_recv sh_name sh_sfx].
  intros (R1 & N1 & X1) (R2 & N2 & X2) E.
  destruct r1 as [r1|], r2 as [r2|]; cbn [recv_part recv_ok] in *; rewrite <- ?app_assoc in E.
  - destruct (rcv_inj _ _ _ _ R1 R2 E) as (-> & E2).
    destruct (ident_split _ _ _ _ N1 N2 (sfx_head x1) (sfx_head x2) E2) as [-> E3].
    apply sfx_inj in E3. now subst.
  - exfalso. exact (recv_vs_name _ _ _ _ _ R1 N2 X2 E).
  - exfalso. symmetry in E. exact (recv_vs_name _ _ _ _ _ R2 N1 X1 E).
  - destruct (ident_split _ _ _ _ N1 N2 (sfx_head x1) (sfx_head x2) E) as [-> E3].
    apply sfx_inj in E3. now subst.
Qed.

(* what path_split needs of the text after the package path *)
Lemma shape_wr s : shape_ok s ->
  exists w r, shape_str s = w ++ r /\ free nonpath w /\ free is_slash w /\ headD nonpath r.
Proof.
  destruct s as [r n x]. unfold shape_ok, shape_str. cbn [sh_recv sh_name sh_sfx]. intros (R & N1 & X).
  destruct (wf_ident_pathfree _ N1) as [Np Ns].
  destruct r as [r|]; cbn [recv_part recv_ok] in *.
  - destruct (rcv_cases _ R) as [(t & ta & T & O & Z)|(z & Z)]; rewrite Z.
    + destruct (wf_ident_pathfree _ T) as [Tp Ts]. destruct ta as [b|]; cbn [brk].
      * exists t, (([c_lb] ++ b ++ [c_rb]) ++ [c_dot] ++ n ++ sfx_str x).
        repeat split; auto. now rewrite <- !app_assoc.
      * exists (t ++ [c_dot] ++ n), (sfx_str x).
        repeat split; auto using free_dot, sfx_head_nonpath. now rewrite app_nil_r, <- !app_assoc.
    + exists [], ((c_lp :: z) ++ [c_dot] ++ n ++ sfx_str x).
      repeat split; try reflexivity. now rewrite <- app_assoc.
  - exists n, (sfx_str x). repeat split; auto. apply sfx_head_nonpath.
Qed.

Definition pkg_of (c : core (option str)) : str :=
  match c with
  | EFunc p _ _ _ | EMethod p _ _ _ _ _ | EGlobal p _ | EInit p _ | ERoutine p _ => p
  | EWrap cp _ _ _ _ _ _ => cp
  end.

Definition wrap_q (fixed : bool) (cp rp : str) : option str :=
  if fixed && negb (str_eqb (path_of rp) (path_of cp)) then Some (path_of rp) else None.

(* as in name_of, a method repeats its type arguments after a closure index only *)
Definition shape_of (fixed : bool) (c : core (option str)) : shape :=
  match c with
  | EFunc _ f cl ta => Shape None f (SClos cl ta)
  | EMethod _ ptr t ta m cl => Shape (Some (ptr, None, t, ta)) m (SClos cl (match cl with [] => None | _ => ta end))
  | EWrap cp k rp ptr t ta m => Shape (Some (ptr, wrap_q fixed cp rp, t, ta)) m (SWk k)
  | EGlobal _ v => Shape None v (SClos [] None)
  | EInit _ n => Shape None s_init (SHash n)
  | ERoutine _ n => Shape None s_routine (SClos [n] None)
  end.

Ltac split_ands :=
  repeat match goal with
         | H : _ && _ = true |- _ => apply andb_prop in H; destruct H
         end.

Lemma ok_path_parts p : ok_path p = true ->
  wf_path p = true /\ has_prefix s_stub0 p = false /\ has_prefix s_llgo_ p = false.
Proof. unfold ok_path. intros H. split_ands. rewrite <- !negb_true_iff. auto. Qed.
Lemma ok_path_wf p : ok_path p = true -> wf_path p = true.
Proof. intros H. apply ok_path_parts, H. Qed.
Lemma ok_path_of p : ok_path p = true -> path_of p = p.
Proof. intros H. apply ok_path_wf in H. now destruct (wf_path_parts _ H) as (_ & _ & ?). Qed.
Lemma ok_ident_wf s : ok_ident s = true -> wf_ident s = true.
Proof. unfold ok_ident. intros H. split_ands. auto. Qed.

Lemma wf_core_pkg c : wf_core c = true -> ok_path (pkg_of c) = true.
Proof. destruct c; cbn; intros H; split_ands; auto. Qed.

Lemma name_of_shape fixed c : wf_core c = true ->
  name_of fixed c = pkg_of c ++ [c_dot] ++ shape_str (shape_of fixed c).
Proof.
  intros W. pose proof (ok_path_of _ (wf_core_pkg _ W)) as P.
  destruct c as [p f cl ta|p ptr t ta m cl|cp k rp ptr t ta m|p v|p n|p n]; cbn [pkg_of] in P;
    cbn [name_of pkg_of shape_of]; unfold shape_str; cbn [sh_recv sh_name sh_sfx recv_part sfx_str rcv_str];
    rewrite ?P.
  - (* EFunc *) reflexivity.
  - (* EMethod: the type arguments follow a closure index only *)
    rewrite <- app_assoc. destruct cl; reflexivity.
  - (* EWrap: wrap_recv_str and wrap_q test the same condition *)
    rewrite <- app_assoc. unfold wrap_recv_str, wrap_q.
    destruct (fixed && negb (str_eqb (path_of rp) (path_of cp))); reflexivity.
  - (* EGlobal *) cbn [clos_str flat_map brk]. now rewrite !app_nil_r.
  - (* EInit *) reflexivity.
  - (* ERoutine: the path is not passed through path_of *)
    cbn [clos_str flat_map brk]. now rewrite !app_nil_r.
Qed.

Lemma shape_of_ok fixed c : wf_core c = true -> shape_ok (shape_of fixed c).
Proof.
  destruct c; cbn [wf_core]; intros H; split_ands; unfold shape_ok;
    cbn [shape_of sh_recv sh_name sh_sfx recv_ok rcv_ok sfx_ok q_ok ok_targs]; auto 6 using ok_ident_wf.
  - destruct clos; auto 6 using ok_ident_wf.
  - unfold wrap_q. destruct (fixed && _); cbn; auto 7 using ok_ident_wf.
    rewrite (ok_path_of rpkg) by assumption. auto 7 using ok_ident_wf, ok_path_wf.
Qed.

Lemma name_of_inj fixed a b : wf_core a = true -> wf_core b = true ->
  name_of fixed a = name_of fixed b -> pkg_of a = pkg_of b /\ shape_of fixed a = shape_of fixed b.
Proof.
  intros Wa Wb E. rewrite (name_of_shape _ _ Wa), (name_of_shape _ _ Wb) in E.
  pose proof (shape_of_ok fixed _ Wa) as Sa. pose proof (shape_of_ok fixed _ Wb) as Sb.
  destruct (shape_wr _ Sa) as (w1 & r1 & E1 & P1 & S1 & H1).
  destruct (shape_wr _ Sb) as (w2 & r2 & E2 & P2 & S2 & H2).
  pose proof (ok_path_wf _ (wf_core_pkg _ Wa)) as Pa. pose proof (ok_path_wf _ (wf_core_pkg _ Wb)) as Pb.
  rewrite E1, E2 in E.
  destruct (path_split _ _ _ _ _ _ Pa Pb P1 S1 P2 S2 H1 H2 E) as (Ep & Ew & Er).
  split; auto. apply shape_inj; auto. rewrite E1, E2. now subst.
Qed.

(* what equal names guarantee: with the fix the rendered entities are equal; before it they
   are equal up to the receiver package of a wrapper *)
Definition same_core (fixed : bool) (a b : core (option str)) : Prop :=
  (if fixed then a = b else erase a = erase b) \/ scope_clash a b.

Lemma same_core_refl fixed a : same_core fixed a a.
Proof. left. destruct fixed; reflexivity. Qed.

Lemma routine_not_ok : ok_ident s_routine = false.
Proof. reflexivity. Qed.

Lemma wrap_q_inj cp rp1 rp2 : ok_path cp = true -> ok_path rp1 = true -> ok_path rp2 = true ->
  wrap_q true cp rp1 = wrap_q true cp rp2 -> rp1 = rp2.
Proof.
  unfold wrap_q. intros C R1 R2. rewrite (ok_path_of _ C), (ok_path_of _ R1), (ok_path_of _ R2).
  destruct (str_eqb rp1 cp) eqn:E1, (str_eqb rp2 cp) eqn:E2; cbn [negb]; intros E; try discriminate.
  - apply str_eqb_eq in E1, E2. congruence.
  - now injection E.
Qed.

Lemma wf_func_routine p cl ta : wf_core (EFunc p s_routine cl ta) = false.
Proof. cbn [wf_core]. rewrite routine_not_ok. now rewrite andb_false_r. Qed.

Lemma wf_wrap_paths cp k rp ptr t ta m :
  wf_core (EWrap cp k rp ptr t ta m) = true -> ok_path cp = true /\ ok_path rp = true.
Proof. cbn [wf_core]. intros W. split_ands. auto. Qed.

(* the shape forgets only: function or variable (scope_clash), and a function called
   _llgo_routine (excluded by ok_ident); before the fix also the receiver package of a wrapper *)
Lemma shape_to_core fixed a b : wf_core a = true -> wf_core b = true ->
  pkg_of a = pkg_of b -> shape_of fixed a = shape_of fixed b -> same_core fixed a b.
Proof.
  intros Wa Wb Ep Es.
  (* of the 36 pairs of forms, 26 have shapes that differ in a constructor *)
  destruct a as [p f cl ta|p ptr t ta m cl|cp k rp ptr t ta m|p v|p n|p n];
    destruct b as [p' f' cl' ta'|p' ptr' t' ta' m' cl'|cp' k' rp' ptr' t' ta' m'|p' v'|p' n'|p' n'];
    cbn [shape_of] in Es; try discriminate Es; cbn [pkg_of] in Ep; injection Es; intros; subst.
  - (* EFunc, EFunc *) apply same_core_refl.
  - (* EFunc, EGlobal *) right. split; reflexivity.
  - (* EFunc, ERoutine *) rewrite wf_func_routine in Wa. discriminate Wa.
  - (* EMethod, EMethod *) apply same_core_refl.
  - (* EWrap, EWrap: equal up to the receiver package; Es has left the equation on wrap_q *)
    left. destruct fixed; [|reflexivity]. f_equal.
    destruct (wf_wrap_paths _ _ _ _ _ _ _ Wa) as [C Ra]. destruct (wf_wrap_paths _ _ _ _ _ _ _ Wb) as [_ Rb].
    exact (wrap_q_inj _ _ _ C Ra Rb ltac:(assumption)).
  - (* EGlobal, EFunc *) right. split; reflexivity.
  - (* EGlobal, EGlobal *) apply same_core_refl.
  - (* EInit, EInit *) apply same_core_refl.
  - (* ERoutine, EFunc *) rewrite wf_func_routine in Wb. discriminate Wb.
  - (* ERoutine, ERoutine *) apply same_core_refl.
Qed.

Lemma name_of_injective_any fixed a b : wf_core a = true -> wf_core b = true ->
  name_of fixed a = name_of fixed b -> same_core fixed a b.
Proof.
  intros Wa Wb E. destruct (name_of_inj fixed a b Wa Wb E) as [Ep Es]. now apply shape_to_core.
Qed.

Lemma prefix_or_char q : forall p c t x, has_prefix q p = false -> p ++ c :: t = q ++ x -> In c q.
Proof.
  induction q as [|a q IH]; intros p c t x Hp E; cbn in Hp.
  - discriminate.
  - destruct p as [|b p]; cbn in E.
    + injection E as -> _. now left.
    + injection E as <- E. rewrite N.eqb_refl in Hp. right. exact (IH _ _ _ _ Hp E).
Qed.

Lemma has_prefix_app q : forall s, has_prefix q s = true -> exists x, s = q ++ x.
Proof.
  induction q as [|a q IH]; intros s H; cbn in H.
  - exists s. reflexivity.
  - destruct s as [|b s]; [discriminate|]. apply andb_prop in H as [E H]. apply N.eqb_eq in E. subst b.
    destruct (IH _ H) as (x & ->). exists x. reflexivity.
Qed.

(* a name that starts with q, where the package path does not: the dot after the path is in q *)
Lemma core_prefix fixed c q x : wf_core c = true -> has_prefix q (pkg_of c) = false ->
  name_of fixed c = q ++ x -> In c_dot q.
Proof. intros W P E. rewrite (name_of_shape _ _ W) in E. exact (prefix_or_char _ _ _ _ _ P E). Qed.

Lemma core_not_stub fixed c x : wf_core c = true -> name_of fixed c = s_stub ++ x -> False.
Proof.
  intros W E. destruct (ok_path_parts _ (wf_core_pkg _ W)) as (_ & P & _).
  change s_stub with (s_stub0 ++ [c_dot]) in E. rewrite <- app_assoc in E.
  apply core_prefix in E; auto. cbn in E. intuition discriminate.
Qed.

Lemma core_not_llgo fixed c s : wf_core c = true -> has_prefix s_llgo_ s = true -> name_of fixed c = s -> False.
Proof.
  intros W Hs E. destruct (ok_path_parts _ (wf_core_pkg _ W)) as (_ & _ & P).
  destruct (has_prefix_app _ _ Hs) as (x & ->).
  apply core_prefix in E; auto. cbn in E. intuition discriminate.
Qed.

Definition render_ent (e : entity tys) : entity (option str) :=
  match e with ECore c => ECore (render c) | EStubDecl c => EStubDecl (render c) | EStubPtr s => EStubPtr s end.

Definition wf_entity (e : entity (option str)) : bool :=
  match e with
  | ECore c | EStubDecl c => wf_core c
  | EStubPtr s => has_prefix s_llgo_ s     (* abi.FuncName: _llgo_func$hash *)
  end.

Definition same_entity (fixed : bool) (e1 e2 : entity (option str)) : Prop :=
  match e1, e2 with
  | ECore a, ECore b | EStubDecl a, EStubDecl b => same_core fixed a b
  | EStubPtr s1, EStubPtr s2 => s1 = s2
  | _, _ => False
  end.

Lemma link_name_injective_rendered fixed e1 e2 :
  wf_entity (render_ent e1) = true -> wf_entity (render_ent e2) = true ->
  link_name fixed e1 = link_name fixed e2 -> same_entity fixed (render_ent e1) (render_ent e2).
Proof.
  destruct e1 as [a|a|s1], e2 as [b|b|s2]; cbn [render_ent wf_entity link_name same_entity]; unfold core_name; intros W1 W2 E.
  - now apply name_of_injective_any.
  - exact (core_not_stub _ _ _ W1 E).
  - exact (core_not_stub _ _ _ W1 E).
  - symmetry in E. exact (core_not_stub _ _ _ W2 E).
  - apply app_inv_head in E. now apply name_of_injective_any.
  - apply app_inv_head in E. exact (core_not_llgo _ _ _ W1 W2 E).
  - symmetry in E. exact (core_not_stub _ _ _ W2 E).
  - apply app_inv_head in E. symmetry in E. exact (core_not_llgo _ _ _ W2 W1 E).
  - now apply app_inv_head in E.
Qed.

(* instances (the mergeable definitions) are functions or methods with type arguments: neither
   wrappers nor part of a scope clash, so one name means one rendered entity *)
Lemma instance_same fixed a b : is_instance a = true -> is_instance b = true ->
  same_core fixed (render a) (render b) -> render a = render b.
Proof.
  intros Ia Ib [H|H].
  - (* an instance is no wrapper, so erase leaves its rendering alone *)
    destruct fixed; [exact H|].
    destruct a; try discriminate Ia. all: destruct b; try discriminate Ib. all: exact H.
  - (* a scope clash needs a variable, or a function without type arguments *)
    exfalso. destruct a as [p f cl ta|p ptr t ta m cl| | | |]; try discriminate Ia.
    + (* function: it has type arguments *)
      destruct cl; [destruct ta; [discriminate Ia|]|]; destruct b; exact H.
    + (* method *) destruct b; exact H.
Qed.

Lemma mergeable_rendered fixed a b :
  is_instance a = true -> is_instance b = true ->
  wf_core (render a) = true -> wf_core (render b) = true ->
  core_name fixed a = core_name fixed b -> render a = render b.
Proof. intros Ia Ib Wa Wb E. exact (instance_same fixed a b Ia Ib (name_of_injective_any fixed _ _ Wa Wb E)). Qed.

(* the guard on program entities: no hypothesis on the rendered text *)

Definition wf_prog_core (c : core tys) : bool :=
  match c with
  | EFunc p f cl ta => ok_path p && ok_ident f && nobr_tys ta
  | EMethod p ptr t ta m cl => ok_path p && ok_ident t && ok_ident m && nobr_tys ta
  | EWrap cp k rp ptr t ta m => ok_path cp && ok_path rp && ok_ident t && ok_ident m && nobr_tys ta
  | EGlobal p v => ok_path p && ok_ident v
  | EInit p n => ok_path p
  | ERoutine p n => ok_path p
  end.
Definition wf_prog (e : entity tys) : bool :=
  match e with
  | ECore c | EStubDecl c => wf_prog_core c
  | EStubPtr s => has_prefix s_llgo_ s
  end.

Lemma wf_prog_core_render c : wf_prog_core c = true -> wf_core (render c) = true.
Proof.
  destruct c; cbn [wf_prog_core render wf_core]; intros H; try exact H;
    apply andb_prop in H as [H T]; rewrite H; exact (targs_text_ok _ T).
Qed.
Lemma wf_prog_render e : wf_prog e = true -> wf_entity (render_ent e) = true.
Proof. destruct e; cbn; auto using wf_prog_core_render. Qed.

Lemma link_name_injective_prog fixed e1 e2 :
  wf_prog e1 = true -> wf_prog e2 = true ->
  link_name fixed e1 = link_name fixed e2 -> same_entity fixed (render_ent e1) (render_ent e2).
Proof. intros W1 W2. apply link_name_injective_rendered; now apply wf_prog_render. Qed.

Definition i_F : str := Eval vm_compute in lit "F"%string.
Definition p_os : str := Eval vm_compute in lit "os"%string.

(* F10: func c of package x/a.b, method c of type b of package x/a *)
Definition w_dot_func : entity tys := ECore (EFunc (lit "x/a.b") (lit "c") [] TsNil).
Definition w_dot_meth : entity tys := ECore (EMethod (lit "x/a") false (lit "b") TsNil (lit "c") []).
Lemma pkg_dot_witness fixed :
  w_dot_func <> w_dot_meth /\ link_name fixed w_dot_func = link_name fixed w_dot_meth
  /\ link_name fixed w_dot_func = lit "x/a.b.c"
  /\ wf_entity (render_ent w_dot_meth) = true
  /\ wf_path (lit "x/a.b") = false /\ forallb path_char (lit "x/a.b") = true.
Proof.
  split; [discriminate|]. cbn [link_name core_name render name_of w_dot_func w_dot_meth].
  clear fixed. vm_compute. repeat split.
Qed.

(* method value wrappers compiled into package x for the method M of a type T of package rp *)
Definition w_wrap (rp : string) : entity tys :=
  ECore (EWrap (lit "x") WBound (lit rp) false (lit "T") TsNil (lit "M")).
(* before the fix the wrappers for x/a.T.M and for x/b.T.M, both well formed, have one name;
   with the fix: two names *)
Lemma wrapper_witness :
  w_wrap "x/a" <> w_wrap "x/b" /\ wf_prog (w_wrap "x/a") = true /\ wf_prog (w_wrap "x/b") = true
  /\ link_name false (w_wrap "x/a") = link_name false (w_wrap "x/b")
  /\ link_name false (w_wrap "x/a") = lit "x.T.M$bound"
  /\ link_name true (w_wrap "x/a") = lit "x.(x/a.T).M$bound"
  /\ link_name true (w_wrap "x/b") = lit "x.(x/b.T).M$bound".
Proof. vm_compute. split; [discriminate|repeat split]. Qed.
(* a user function called _llgo_routine with a closure, and the first goroutine thunk *)
Definition w_rt_func : entity tys := ECore (EFunc (lit "x") s_routine [1] TsNil).
Definition w_rt_thunk : entity tys := ECore (ERoutine (lit "x") 1).
Lemma routine_witness fixed :
  w_rt_func <> w_rt_thunk /\ link_name fixed w_rt_func = link_name fixed w_rt_thunk
  /\ link_name fixed w_rt_func = lit "x._llgo_routine$1" /\ wf_ident s_routine = true.
Proof.
  split; [discriminate|]. cbn [link_name core_name render name_of w_rt_func w_rt_thunk].
  clear fixed. vm_compute. repeat split.
Qed.

(* package __llgo_stub, type T, method M  vs  the closure stub of func M of package T *)
Definition w_stub_meth : entity tys := ECore (EMethod s_stub0 false (lit "T") TsNil (lit "M") []).
Definition w_stub_stub : entity tys := EStubDecl (EFunc (lit "T") (lit "M") [] TsNil).
Lemma stub_witness fixed :
  w_stub_meth <> w_stub_stub /\ link_name fixed w_stub_meth = link_name fixed w_stub_stub
  /\ link_name fixed w_stub_meth = lit "__llgo_stub.T.M" /\ wf_path s_stub0 = true.
Proof.
  split; [discriminate|]. cbn [link_name core_name render name_of w_stub_meth w_stub_stub].
  clear fixed. vm_compute. repeat split.
Qed.

(* by design: a package below the patch prefix takes the names of the package it patches *)
Lemma patch_witness fixed :
  link_name fixed (ECore (EFunc (s_patch ++ p_os) i_F [] TsNil)) = link_name fixed (ECore (EFunc p_os i_F [] TsNil)).
Proof. destruct fixed; reflexivity. Qed.
