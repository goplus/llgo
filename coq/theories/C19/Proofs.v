(* C19 - lemmas.  In Section CAPI the CPython C API is a variable [A : ops obj]
   together with a denotation [den : obj -> pyval]; the documented contracts its
   lemmas need are Section hypotheses, so they are explicit premises of them.
   After it: how often a module is imported (import_count), import before use
   (use_origin, with C12's exec_ordered), symbol loading, float32 widening
   (f32_widen_exact). *)
From LLGoV Require Import C19.Model.
From LLGoV Require C12.Model C12.Proofs.
From Coq Require Import Lia ZifyBool.
Local Open Scope Z_scope.

Lemma sgn_bounds_le f t z : 0 < f <= t -> in_range f z -> - 2 ^ (t - 1) <= sgn f z < 2 ^ (t - 1).
Proof.
  intros Hf H. pose proof (sgn_bounds f z (proj1 Hf) H). pose proof (pow2_mono (f - 1) (t - 1)). lia.
Qed.

Lemma sext_range f t z : 0 <= t -> in_range t (sext f t z).
Proof. intros H. unfold sext. now apply wrap_range. Qed.

Lemma sext_value f t z : 0 < f <= t -> in_range f z -> sgn t (sext f t z) = sgn f z.
Proof. intros Hf H. unfold sext. apply sgn_wrap; [lia|]. now apply sgn_bounds_le. Qed.

Lemma sext_trunc f t z : 0 < f <= t -> in_range f z -> wrap f (sext f t z) = z.
Proof.
  intros Hf H. unfold sext. rewrite wrap_wrap_le, wrap_sgn_le by lia. now apply wrap_small.
Qed.

Lemma upd_app {A} (done : list A) a rest x : upd (done ++ a :: rest) (length done) x = done ++ x :: rest.
Proof. induction done as [|d done IH]; cbn; [reflexivity|]. now rewrite IH. Qed.

Section CAPI.
  Variable obj : Type.
  Variable A : ops obj.
  Variable den : obj -> pyval.

  Hypothesis H_ll : forall b, in_range 64 b -> den (o_ll A b) = PLong (sgn 64 b).
  Hypothesis H_list_new : forall n, 0 <= n -> den (o_list_new A n) = PList (repeat PNull (Z.to_nat n)).
  Hypothesis H_list_set : forall l xs i x, den l = PList xs -> 0 <= i < Z.of_nat (length xs) ->
    den (o_list_set A l i x) = PList (upd xs (Z.to_nat i) (den x)).
  Hypothesis H_tuple_new : forall n, 0 <= n -> den (o_tuple_new A n) = PTuple (repeat PNull (Z.to_nat n)).
  Hypothesis H_tuple_set : forall l xs i x, den l = PTuple xs -> 0 <= i < Z.of_nat (length xs) ->
    den (o_tuple_set A l i x) = PTuple (upd xs (Z.to_nat i) (den x)).
  Hypothesis H_as_ll : forall o z, den o = PLong z -> - 2 ^ 63 <= z < 2 ^ 63 -> o_as_ll A o = Some (wrap 64 z).

  Lemma int_signed w bits : wf_w w -> in_range w bits ->
    den (py_val_gen A (VInt w true bits)) = PLong (sgn w bits) /\
    exists r, o_as_ll A (py_val_gen A (VInt w true bits)) = Some r /\ wrap w r = bits.
  Proof.
    intros Hw H. assert (R : 0 < w <= 64) by (unfold wf_w in Hw; lia).
    cbn [py_val_gen].
    (* a full-width value is its own extension: the argument is the extension for every width *)
    replace (if w <? 64 then sext w 64 bits else bits) with (sext w 64 bits)
      by (destruct (w <? 64) eqn:E; [reflexivity|]; assert (w = 64) as -> by lia; now apply wrap_sgn).
    assert (D : den (o_ll A (sext w 64 bits)) = PLong (sgn w bits)).
    { rewrite H_ll by now apply sext_range. f_equal. now apply sext_value. }
    split; [exact D|]. exists (sext w 64 bits). split; [|now apply sext_trunc].
    apply (H_as_ll _ _ D). now apply (sgn_bounds_le w 64).
  Qed.

  (* building by index, for lists and tuples alike: [set] and the constructor C
     of the denotation are o_list_set and PList, or o_tuple_set and PTuple *)
  Lemma set_items_spec (set : obj -> Z -> obj -> obj) (C : list pyval -> pyval) :
    (forall l xs i x, den l = C xs -> 0 <= i < Z.of_nat (length xs) ->
       den (set l i x) = C (upd xs (Z.to_nat i) (den x))) ->
    forall xs l done rest, den l = C (done ++ rest) -> length rest = length xs ->
      den (set_items set l (Z.of_nat (length done)) xs) = C (done ++ map den xs).
  Proof.
    intros Hset. induction xs as [|x xs IH]; intros l done rest D L; cbn.
    - destruct rest; [|discriminate]. exact D.
    - destruct rest as [|r rest]; [discriminate|]. cbn in L.
      specialize (IH (set l (Z.of_nat (length done)) x) (done ++ [den x]) rest).
      rewrite app_length in IH. cbn [length] in IH.
      replace (Z.of_nat (length done + 1)) with (Z.of_nat (length done) + 1) in IH by lia.
      rewrite IH; [now rewrite <- app_assoc| |lia].
      rewrite (Hset l (done ++ r :: rest) (Z.of_nat (length done)) x D).
      + rewrite Nat2Z.id, upd_app, <- app_assoc. reflexivity.
      + rewrite app_length. cbn [length]. lia.
  Qed.

  Lemma list_index_order vs :
    den (py_list_gen A vs) = PList (map (fun v => den (py_val_gen A v)) vs) /\
    den (py_tuple_gen A vs) = PTuple (map (fun v => den (py_val_gen A v)) vs).
  Proof.
    unfold py_list_gen, py_tuple_gen. split.
    - rewrite (set_items_spec _ PList H_list_set (map (py_val_gen A) vs) _ [] (repeat PNull (length vs))).
      + cbn. now rewrite map_map.
      + cbn. rewrite H_list_new by lia. now rewrite Nat2Z.id.
      + now rewrite repeat_length, map_length.
    - rewrite (set_items_spec _ PTuple H_tuple_set (map (py_val_gen A) vs) _ [] (repeat PNull (length vs))).
      + cbn. now rewrite map_map.
      + cbn. rewrite H_tuple_new by lia. now rewrite Nat2Z.id.
      + now rewrite repeat_length, map_length.
  Qed.
End CAPI.

Lemma upto_null_some {obj} (l : list obj) r : upto_null (map Some l ++ None :: r) = l.
Proof. induction l as [|x l IH]; cbn; [reflexivity|]. now rewrite IH. Qed.

Lemma call_delivers {obj} nparams variadic (f : obj) args :
  (variadic = false -> length args = nparams) -> (variadic = true -> (1 <= nparams)%nat) ->
  delivered (py_call nparams variadic f args) = args.
Proof.
  intros Hn Hv. unfold py_call.
  destruct nparams as [|[|n]].
  - destruct variadic; [specialize (Hv eq_refl); lia|]. specialize (Hn eq_refl).
    destruct args; [reflexivity|discriminate].
  - destruct variadic.
    + cbn. apply upto_null_some.
    + specialize (Hn eq_refl). destruct args as [|a [|b args]]; try discriminate. reflexivity.
  - cbn. destruct variadic; apply upto_null_some.
Qed.

Lemma memZ_In x l : memZ x l = true <-> In x l.
Proof. apply existsb_eqb_In, Z.eqb_eq. Qed.

Definition pev_eq_dec (a b : pev) : {a = b} + {a <> b}.
Proof. decide equality; apply Z.eq_dec. Defined.
Arguments pev_eq_dec : simpl never.

Definition binds (m : Z) (b : prole) : bool := match b with BBind k => k =? m | _ => false end.

(* whatever the order of the package bodies, a module is imported once if it is
   not imported yet and one of its binding packages runs, and never otherwise *)
Lemma import_count m : forall bs imported,
  count_occ pev_eq_dec (run_bodies imported bs) (EvImport m) =
  if memZ m imported || negb (existsb (binds m) bs) then 0%nat else 1%nat.
Proof.
  assert (U : forall ms l, count_occ pev_eq_dec (map EvUse ms ++ l) (EvImport m) = count_occ pev_eq_dec l (EvImport m)).
  { induction ms as [|x ms IH]; intros l; cbn; [reflexivity|].
    destruct (pev_eq_dec (EvUse x) (EvImport m)); [discriminate|apply IH]. }
  induction bs as [|b bs IH]; intros imported; cbn [run_bodies existsb].
  - cbn. now rewrite orb_true_r.
  - destruct b as [k|ms|]; cbn [binds orb].
    + destruct (memZ k imported) eqn:Ek.
      * (* k is imported already: no event *)
        rewrite IH. destruct (Z.eqb_spec k m) as [->|Hk]; cbn [orb]; [now rewrite Ek|reflexivity].
      * (* k is imported here *)
        cbn [count_occ]. rewrite IH.
        change (memZ m (k :: imported)) with ((m =? k) || memZ m imported).
        destruct (Z.eqb_spec k m) as [->|Hk]; cbn [orb].
        -- destruct (pev_eq_dec (EvImport m) (EvImport m)); [|congruence]. now rewrite Z.eqb_refl, Ek.
        -- destruct (pev_eq_dec (EvImport k) (EvImport m)) as [H|_]; [congruence|].
           now rewrite (proj2 (Z.eqb_neq m k)) by congruence.
    + rewrite U. apply IH.
    + apply IH.
Qed.

Lemma import_at_most_once m bs imported :
  (count_occ pev_eq_dec (run_bodies imported bs) (EvImport m) <= 1)%nat.
Proof. rewrite import_count. destruct (_ || _); lia. Qed.

Lemma import_exactly_once m bs imported : memZ m imported = false -> In (BBind m) bs ->
  count_occ pev_eq_dec (run_bodies imported bs) (EvImport m) = 1%nat.
Proof.
  intros Hm H. rewrite import_count, Hm. replace (existsb (binds m) bs) with true; [reflexivity|].
  symmetry. apply existsb_exists. exists (BBind m). split; [assumption|apply Z.eqb_refl].
Qed.

(* a use event stems from a package that uses the module, and every module bound
   by an earlier package has been imported before it *)
Lemma use_origin : forall bs imported e1 m e2, run_bodies imported bs = e1 ++ EvUse m :: e2 ->
  exists l1 ms l2, bs = l1 ++ BUse ms :: l2 /\ In m ms /\
    forall k, In (BBind k) l1 -> In (EvImport k) e1 \/ memZ k imported = true.
Proof.
  induction bs as [|b bs IH]; intros imported e1 m e2 E; cbn in E; [destruct e1; discriminate|].
  destruct b as [k|ms|].
  - destruct (memZ k imported) eqn:Ek.
    + destruct (IH _ _ _ _ E) as (l1 & ms & l2 & -> & Hm & Hb). exists (BBind k :: l1), ms, l2.
      split; [reflexivity|]. split; [assumption|].
      intros k' [H|H]; [inversion H; subst; now right|now apply Hb].
    + destruct e1 as [|e e1]; inversion E; subst.
      destruct (IH _ _ _ _ H1) as (l1 & ms & l2 & -> & Hm & Hb). exists (BBind k :: l1), ms, l2.
      split; [reflexivity|]. split; [assumption|].
      intros k' [H|H]; [inversion H; subst; left; now left|].
      destruct (Hb k' H) as [H'|H']; [left; now right|].
      change (memZ k' (k :: imported)) with ((k' =? k) || memZ k' imported) in H'.
      apply orb_true_iff in H' as [H'|H']; [|now right]. apply Z.eqb_eq in H'. subst. left. now left.
  - apply C12.Proofs.app_split in E as [(t & E1 & E2)|(t & E1 & E2)].
    + exists [], ms, bs. split; [reflexivity|]. split; [|intros k []].
      assert (H : In (EvUse m) (map EvUse ms)) by (rewrite E1; apply in_elt).
      apply in_map_iff in H as [x [Hx1 Hx2]]. now inversion Hx1; subst.
    + destruct (IH _ _ _ _ E2) as (l1 & ms' & l2 & -> & Hm & Hb). exists (BUse ms :: l1), ms', l2.
      split; [reflexivity|]. split; [assumption|]. subst e1.
      intros k [H|H]; [discriminate|]. destruct (Hb k H); [left; apply in_app_iff|]; auto.
  - destruct (IH _ _ _ _ E) as (l1 & ms & l2 & -> & Hm & Hb). exists (BPlain :: l1), ms, l2.
    split; [reflexivity|]. split; [assumption|]. intros k [H|H]; [discriminate|now apply Hb].
Qed.

Lemma roles_of_app roles l1 l2 : roles_of roles (l1 ++ l2) = roles_of roles l1 ++ roles_of roles l2.
Proof. unfold roles_of. apply flat_map_app. Qed.

Lemma roles_of_In roles tr r : In r (roles_of roles tr) -> exists p, In (C12.Model.EMain p) tr /\ nth p roles BPlain = r.
Proof.
  unfold roles_of. rewrite in_flat_map. intros [e [He Hr]]. destruct e as [p|p]; [|destruct Hr].
  destruct Hr as [Hr|[]]. eauto.
Qed.

Lemma roles_split roles : forall tr l1 r l2, roles_of roles tr = l1 ++ r :: l2 ->
  exists t1 p t2, tr = t1 ++ C12.Model.EMain p :: t2 /\ roles_of roles t1 = l1 /\ nth p roles BPlain = r.
Proof.
  induction tr as [|e tr IH]; intros l1 r l2 H; [destruct l1; discriminate|].
  destruct e as [p|p].
  - change (roles_of roles (C12.Model.EMain p :: tr)) with (nth p roles BPlain :: roles_of roles tr) in H.
    destruct l1 as [|x l1]; cbn in H; inversion H; subst.
    + exists [], p, tr. auto.
    + destruct (IH _ _ _ H2) as [t1 [q [t2 [E1 [E2 E3]]]]]. exists (C12.Model.EMain p :: t1), q, t2.
      subst. repeat split.
  - change (roles_of roles (C12.Model.EOrig p :: tr)) with (roles_of roles tr) in H.
    destruct (IH _ _ _ H) as [t1 [q [t2 [E1 [E2 E3]]]]]. exists (C12.Model.EOrig p :: t1), q, t2.
    subst. repeat split.
Qed.

Lemma program_use_after_import g roots roles :
  C12.Model.wf g = true -> Forall (fun r => (r < length g)%nat) roots ->
  (* every package that uses module m imports a binding package of m *)
  (forall u pk ms m, nth_error g u = Some pk -> nth u roles BPlain = BUse ms -> In m ms ->
      exists b, In b (C12.Model.eff g (C12.Model.pk_imps pk)) /\ nth b roles BPlain = BBind m) ->
  forall e1 m e2, init_events g roots roles = e1 ++ EvUse m :: e2 -> In (EvImport m) e1.
Proof.
  intros W HR HU e1 m e2 E.
  destruct (use_origin _ _ _ _ _ E) as (l1 & ms & l2 & Hs & Hm & Hb).
  destruct (Hb m) as [H|H]; [|exact H|discriminate].
  destruct (roles_split roles _ _ _ _ Hs) as (t1 & u & t2 & Et & <- & Eu).
  assert (Hin : In (C12.Model.EMain u) (C12.Model.exec g roots)) by (rewrite Et; apply in_elt).
  apply (C12.Proofs.exec_reach g W roots HR) in Hin as (r & _ & R & _). apply C12.Proofs.reach_lt in R.
  destruct (nth_error g u) as [pk|] eqn:Epk; [|apply nth_error_None in Epk; cbn in R; lia].
  destruct (HU u pk ms m Epk Eu Hm) as (b & Hb' & <-).
  (* the body of the imported binding package b precedes that of u *)
  pose proof (C12.Proofs.exec_ordered g W roots HR _ _ (C12.Proofs.dep_import g u pk b Epk Hb') t1 t2 Et) as Hb1.
  unfold roles_of. apply in_flat_map. exists (C12.Model.EMain b). split; [assumption|now left].
Qed.

Lemma name_eqb_eq a b : name_eqb a b = true <-> a = b.
Proof.
  split.
  - apply list_eqb_eq. intros x y H. now apply Z.eqb_eq.
  - intros ->. apply list_eqb_refl. apply Z.eqb_refl.
Qed.

Lemma insert_In x l y : In y (insert_name x l) <-> y = x \/ In y l.
Proof.
  induction l as [|z l IH]; cbn; [intuition|].
  destruct (name_leb x z); cbn; [intuition|]. rewrite IH. intuition.
Qed.

Lemma sort_In l y : In y (sort_names l) <-> In y l.
Proof.
  induction l as [|x l IH]; cbn; [tauto|]. unfold sort_names in *. cbn. rewrite insert_In, IH. intuition.
Qed.

Lemma runs_cover : forall l last n, In n l -> In (mod_of n) (runs last l) \/ last = Some (mod_of n).
Proof.
  induction l as [|x l IH]; intros last n H; [destruct H|]. cbn.
  destruct (option_eqb name_eqb last (Some (mod_of x))) eqn:E.
  - destruct H as [->|H].
    + right. destruct last as [m|]; cbn in E; [|discriminate]. apply name_eqb_eq in E. now subst.
    + apply IH, H.
  - destruct H as [->|H]; [left; now left|].
    destruct (IH (Some (mod_of x)) n H) as [H1|H1]; [left; now right|].
    inversion H1. left. now left.
Qed.

Lemma fields_pack eb fb s E F : 0 <= eb -> 0 <= fb -> 0 <= E < 2 ^ eb -> 0 <= F < 2 ^ fb ->
  let W := s * 2 ^ (eb + fb) + E * 2 ^ fb + F in
  W / 2 ^ (eb + fb) = s /\ (W / 2 ^ fb) mod 2 ^ eb = E /\ W mod 2 ^ fb = F.
Proof.
  intros Heb Hfb HE HF W. subst W. rewrite Z.pow_add_r by assumption.
  set (P := 2 ^ eb) in *. set (Q := 2 ^ fb) in *.
  replace (s * (P * Q) + E * Q + F) with (F + (E + s * P) * Q) by ring.
  assert (D : (F + (E + s * P) * Q) / Q = E + s * P) by (rewrite Z.div_add, Z.div_small; lia).
  split; [|split].
  - rewrite (Z.mul_comm P Q), <- Z.div_div, D, Z.div_add, Z.div_small; lia.
  - rewrite D, Z.mod_add, Z.mod_small; lia.
  - rewrite Z.mod_add, Z.mod_small; lia.
Qed.

Lemma f_decode_pack eb fb s E F : 0 <= eb -> 0 <= fb -> 0 <= E < 2 ^ eb -> 0 <= F < 2 ^ fb ->
  f_decode eb fb (s * 2 ^ (eb + fb) + E * 2 ^ fb + F) =
  let bias := 2 ^ (eb - 1) - 1 in
  if E =? 2 ^ eb - 1 then (if F =? 0 then FInf (s =? 1) else FNaN)
  else if E =? 0 then FFin (s =? 1) F (1 - bias - fb)
  else FFin (s =? 1) (2 ^ fb + F) (E - bias - fb).
Proof.
  intros Heb Hfb HE HF. unfold f_decode.
  destruct (fields_pack eb fb s E F Heb Hfb HE HF) as (-> & -> & ->). reflexivity.
Qed.

Lemma fin_same neg m1 e1 m2 e2 d : 0 <= d -> e2 = e1 + d -> m1 = m2 * 2 ^ d ->
  fval_same (FFin neg m1 e1) (FFin neg m2 e2).
Proof.
  intros Hd -> ->. split; [reflexivity|]. rewrite Z.min_l by lia.
  replace (e1 - e1) with 0 by lia. replace (e1 + d - e1) with d by lia. rewrite Z.pow_0_r. lia.
Qed.

(* Both decodings are functions of the three fields s, e, f of the float32
   pattern; in each of the five classes the widened pattern is again put together
   from a sign, an exponent and a fraction, which [f_decode_pack] reads off.  The
   range of b plays no role: s is compared with 1 on both sides. *)
Lemma f32_widen_exact b : fval_same (f64_decode (f32_widen b)) (f32_decode b).
Proof.
  unfold f32_widen, f32_decode, f64_decode. unfold f_decode at 2.
  change (8 + 23) with 31. change (2 ^ 8 - 1) with 255. change 63 with (11 + 52).
  set (s := b / 2 ^ 31). set (e := (b / 2 ^ 23) mod 2 ^ 8). set (f := b mod 2 ^ 23).
  assert (He : 0 <= e < 2 ^ 8) by (apply Z.mod_pos_bound; lia).
  assert (Hf : 0 <= f < 2 ^ 23) by (apply Z.mod_pos_bound; lia).
  clearbody s e f. clear b.
  destruct (e =? 255) eqn:E255; [destruct (f =? 0) eqn:F0|destruct (e =? 0) eqn:E0; [destruct (f =? 0) eqn:F0|]].
  - (* infinity *)
    rewrite f_decode_pack by lia. reflexivity.
  - (* NaN: the fraction stays non-zero *)
    rewrite f_decode_pack by (destruct (f <? 2 ^ 22) eqn:Q; lia). cbv zeta.
    change (2047 =? 2 ^ 11 - 1) with true. cbv iota.
    replace (_ =? 0) with false by (destruct (f <? 2 ^ 22) eqn:Q; lia). exact I.
  - (* zero *)
    replace (s * 2 ^ (11 + 52)) with (s * 2 ^ (11 + 52) + 0 * 2 ^ 52 + 0) by lia.
    rewrite f_decode_pack by lia. cbv zeta. change (0 =? 2 ^ 11 - 1) with false. cbv iota.
    assert (f = 0) as -> by lia. split; [reflexivity|apply Z.mul_0_l].
  - (* subnormal: normalised with the position k of the leading bit *)
    set (k := Z.log2 f).
    assert (Hk : 2 ^ k <= f < 2 ^ Z.succ k) by (apply Z.log2_spec; lia).
    assert (Hk0 : 0 <= k) by apply Z.log2_nonneg.
    assert (Hk22 : k < 23) by (apply Z.log2_lt_pow2; lia).
    clearbody k. rewrite Z.pow_succ_r in Hk by assumption.
    assert (PQ : 2 ^ k * 2 ^ (52 - k) = 2 ^ 52) by (rewrite <- Z.pow_add_r by lia; f_equal; lia).
    assert (Pp : 0 < 2 ^ (52 - k)) by (apply Z.pow_pos_nonneg; lia).
    set (P := 2 ^ (52 - k)) in *. set (Q := 2 ^ k) in *.
    rewrite f_decode_pack by nia. cbv zeta.
    replace (_ =? 2 ^ 11 - 1) with false by lia. replace (k - 149 + 1023 =? 0) with false by lia.
    apply (fin_same _ _ _ _ _ (52 - k)); [lia..|]. fold P. lia.
  - (* normal *)
    rewrite f_decode_pack by lia. cbv zeta. change (2 ^ 8 - 1) with 255 in *.
    replace (_ =? 2 ^ 11 - 1) with false by lia. replace (e - 127 + 1023 =? 0) with false by lia.
    apply (fin_same _ _ _ _ _ 29); lia.
Qed.
