(* C19 - property theorems only.  The CPython C API enters as an arbitrary
   implementation [A : ops obj] with a denotation [den : obj -> pyval] that
   satisfies the documented contracts; these contracts are the premises written
   out in each statement (no axioms).  [py_val_gen] / [py_list_gen] /
   [py_call] / [run_bodies] / [load_mod_syms] are what llgo emits (Model.v,
   compared with the emitted IR and with a live CPython on every run). *)
From LLGoV Require Import C19.Model C19.Proofs.
From LLGoV Require C12.Model.
Local Open Scope Z_scope.

(* integers of every width and signedness, whole range: Python sees the Go
   value; reading it back and truncating to the width restores the pattern *)
Theorem int_roundtrip_signed : forall obj (A : ops obj) (den : obj -> pyval),
  (forall b, in_range 64 b -> den (o_ll A b) = PLong (sgn 64 b)) ->
  (forall o z, den o = PLong z -> - 2 ^ 63 <= z < 2 ^ 63 -> o_as_ll A o = Some (wrap 64 z)) ->
  forall w bits, wf_w w -> in_range w bits ->
    den (py_val_gen A (VInt w true bits)) = PLong (sgn w bits) /\
    exists r, o_as_ll A (py_val_gen A (VInt w true bits)) = Some r /\ wrap w r = bits.
Proof. intros obj A den H1 H2 w bits. exact (int_signed obj A den H1 H2 w bits). Qed.
Print Assumptions int_roundtrip_signed.

Theorem int_roundtrip_unsigned : forall obj (A : ops obj) (den : obj -> pyval),
  (forall b, in_range 64 b -> den (o_ull A b) = PLong b) ->
  (forall o z, den o = PLong z -> in_range 64 z -> o_as_ull A o = Some z) ->
  forall w bits, wf_w w -> in_range w bits ->
    den (py_val_gen A (VInt w false bits)) = PLong bits /\
    o_as_ull A (py_val_gen A (VInt w false bits)) = Some bits.
Proof.
  intros obj A den H1 H2 w bits Hw H. cbn [py_val_gen].
  assert (H64 : in_range 64 bits) by (apply (in_range_mono w); [unfold wf_w in Hw; lia|assumption]).
  split; [now apply H1|]. apply (H2 _ bits); [now apply H1|assumption].
Qed.
Print Assumptions int_roundtrip_unsigned.

(* the lowering that exists (fixed = true) is the extended one for every
   conversion, first of its type in the build or not *)
Theorem int_roundtrip_signed_every_conversion : forall obj (A : ops obj) (den : obj -> pyval),
  (forall b, in_range 64 b -> den (o_ll A b) = PLong (sgn 64 b)) ->
  (forall o z, den o = PLong z -> - 2 ^ 63 <= z < 2 ^ 63 -> o_as_ll A o = Some (wrap 64 z)) ->
  forall first w bits, wf_w w -> in_range w bits ->
    den (py_val_of true first A (VInt w true bits)) = PLong (sgn w bits) /\
    exists r, o_as_ll A (py_val_of true first A (VInt w true bits)) = Some r /\ wrap w r = bits.
Proof. intros obj A den H1 H2 first. exact (int_roundtrip_signed obj A den H1 H2). Qed.
Print Assumptions int_roundtrip_signed_every_conversion.

(* before the fix (fixed = false; val_step_of false is still matched against the
   IR so that a tree without the fix is classified): a conversion that is not the
   first of its narrow type passed the value without extension and lost the sign *)
Theorem narrow_int_unextended_refuted : forall obj (A : ops obj) (den : obj -> pyval),
  (forall b, in_range 64 b -> den (o_ll A b) = PLong (sgn 64 b)) ->
  exists bits, in_range 8 bits /\ den (py_val_of false false A (VInt 8 true bits)) <> PLong (sgn 8 bits).
Proof.
  intros obj A den H. exists 255. split; [unfold in_range; lia|]. cbn [py_val_of orb].
  rewrite H by (unfold in_range; lia). discriminate.
Qed.
Print Assumptions narrow_int_unextended_refuted.

(* float32 -> double is exact for every bit pattern: same real number, same
   infinity, NaN to NaN *)
Theorem float32_widening_exact : forall b, in_range 32 b ->
  fval_same (f64_decode (f32_widen b)) (f32_decode b).
Proof. intros b _. (* the range of b plays no role *) apply f32_widen_exact. Qed.
Print Assumptions float32_widening_exact.

Theorem float_values_preserved : forall obj (A : ops obj) (den : obj -> pyval),
  (forall b, den (o_float A b) = PFloat b) ->
  (forall o b, den o = PFloat b -> o_as_double A o = Some b) ->
  forall b32 b64,
    den (py_val_gen A (VF32 b32)) = PFloat (f32_widen b32) /\
    den (py_val_gen A (VF64 b64)) = PFloat b64 /\
    o_as_double A (py_val_gen A (VF64 b64)) = Some b64.
Proof.
  intros obj A den H1 H2 b32 b64. cbn [py_val_gen]. rewrite !H1. repeat split. apply (H2 _ b64), H1.
Qed.
Print Assumptions float_values_preserved.

(* strings carry an explicit length (NUL bytes survive); byte slices and byte
   arrays arrive as bytearray / bytes with the same bytes; bool as bool *)
Theorem string_bytes_preserved : forall obj (A : ops obj) (den : obj -> pyval) (utf8_ok : bytes -> Prop),
  (forall s, utf8_ok s -> den (o_unicode A s) = PStr s) ->
  (forall s, den (o_bytearray A s) = PByteArray s) ->
  (forall s, den (o_bytes A s) = PBytes s) ->
  forall s, (utf8_ok s -> den (py_val_gen A (VStr s)) = PStr s) /\
            den (py_val_gen A (VSlice s)) = PByteArray s /\ den (py_val_gen A (VArr s)) = PBytes s.
Proof.
  intros obj A den ok H1 H2 H3 s. cbn [py_val_gen]. auto.
Qed.
Print Assumptions string_bytes_preserved.

Theorem bool_preserved : forall obj (A : ops obj) (den : obj -> pyval),
  (forall v, den (o_bool A v) = PBool (negb (v =? 0))) ->
  forall b, den (py_val_gen A (VBool b)) = PBool b.
Proof. intros obj A den H b. cbn [py_val_gen]. rewrite H. now destruct b. Qed.
Print Assumptions bool_preserved.

(* py.List / py.Tuple: element i of the Python object is the conversion of
   argument i *)
Theorem list_tuple_index_order : forall obj (A : ops obj) (den : obj -> pyval),
  (forall n, 0 <= n -> den (o_list_new A n) = PList (repeat PNull (Z.to_nat n))) ->
  (forall l xs i x, den l = PList xs -> 0 <= i < Z.of_nat (length xs) ->
     den (o_list_set A l i x) = PList (upd xs (Z.to_nat i) (den x))) ->
  (forall n, 0 <= n -> den (o_tuple_new A n) = PTuple (repeat PNull (Z.to_nat n))) ->
  (forall l xs i x, den l = PTuple xs -> 0 <= i < Z.of_nat (length xs) ->
     den (o_tuple_set A l i x) = PTuple (upd xs (Z.to_nat i) (den x))) ->
  forall vs,
    den (py_list_gen A vs) = PList (map (fun v => den (py_val_gen A v)) vs) /\
    den (py_tuple_gen A vs) = PTuple (map (fun v => den (py_val_gen A v)) vs).
Proof. intros obj A den H1 H2 H3 H4. exact (list_index_order obj A den H1 H2 H3 H4). Qed.
Print Assumptions list_tuple_index_order.

(* calls: the callee receives exactly the arguments, in order; the variadic entry
   point gets the NULL sentinel right after the last one.  Holds for prototypes
   with a fixed parameter list and for the __llgo_va_list convention. *)
Theorem call_args_in_order : forall obj nparams variadic valist (f : obj) fixed var,
  (variadic = false -> length fixed = nparams /\ var = []) ->
  (variadic = true -> valist = true /\ (1 <= nparams)%nat) ->
  delivered (py_call nparams variadic (AObj f) (lower_args variadic valist fixed var)) = map AObj (fixed ++ var).
Proof.
  intros obj nparams variadic valist f fixed var Hn Hv. rewrite call_delivers.
  - unfold lower_args. destruct variadic.
    + destruct (Hv eq_refl) as [-> _]. now rewrite map_app.
    + destruct (Hn eq_refl) as [_ ->]. now rewrite !app_nil_r.
  - intros ->. destruct (Hn eq_refl) as [H ->]. unfold lower_args. now rewrite app_nil_r, map_length.
  - intros ->. now destruct (Hv eq_refl).
Qed.
Print Assumptions call_args_in_order.

Theorem call_sentinel_after_last : forall obj nparams variadic (f : obj) args,
  (2 <= nparams)%nat \/ (variadic = true /\ (1 <= nparams)%nat) ->
  py_call nparams variadic f args = CallObjArgs f (map Some args ++ [None]).
Proof.
  intros obj nparams variadic f args [H|[-> H]]; unfold py_call; destruct nparams as [|[|n]]; try lia; reflexivity.
Qed.
Print Assumptions call_sentinel_after_last.

(* a prototype with an ordinary variadic parameter (as lib/py/math.Hypot has):
   the callee does not receive the arguments *)
Theorem call_args_plain_variadic_refuted :
  exists (fixed var : list Z),
    delivered (py_call 1 true (AObj 0) (lower_args true false fixed var)) <> map AObj (fixed ++ var).
Proof. exists [], [1; 2; 3]. cbn. discriminate. Qed.
Print Assumptions call_args_plain_variadic_refuted.

(* module variables: whatever the order in which package bodies run, a module is
   imported at most once, exactly once if one of its binding packages runs *)
Theorem module_imported_once : forall m bs,
  (count_occ pev_eq_dec (run_bodies [] bs) (EvImport m) <= 1)%nat /\
  (In (BBind m) bs -> count_occ pev_eq_dec (run_bodies [] bs) (EvImport m) = 1%nat).
Proof.
  intros m bs. split; [apply import_at_most_once|now apply import_exactly_once].
Qed.
Print Assumptions module_imported_once.

(* ... and before its first use, for every well-formed import graph and every
   order of root init calls (C12's execution of the init functions), provided a
   package that uses a module imports a binding package of it - which the Go
   type checker enforces, the functions being declared there *)
Theorem module_imported_once_before_use : forall g roots roles,
  C12.Model.wf g = true -> Forall (fun r => (r < length g)%nat) roots ->
  (forall u pk ms m, nth_error g u = Some pk -> nth u roles BPlain = BUse ms -> In m ms ->
      exists b, In b (C12.Model.eff g (C12.Model.pk_imps pk)) /\ nth b roles BPlain = BBind m) ->
  forall e1 m e2, init_events g roots roles = e1 ++ EvUse m :: e2 ->
    In (EvImport m) e1 /\ count_occ pev_eq_dec (init_events g roots roles) (EvImport m) = 1%nat.
Proof.
  intros g roots roles W HR HU e1 m e2 E.
  pose proof (program_use_after_import g roots roles W HR HU e1 m e2 E) as H. split; [exact H|].
  assert (Hin : In (EvImport m) (init_events g roots roles)) by (rewrite E; apply in_app_iff; now left).
  apply (count_occ_In pev_eq_dec) in Hin.
  pose proof (import_at_most_once m (roles_of roles (C12.Model.exec g roots)) []). unfold init_events in *. lia.
Qed.
Print Assumptions module_imported_once_before_use.

(* symbol loading: every symbol is loaded from its own module ... *)
Theorem modsyms_every_symbol_loaded : forall names n, In n names ->
  exists syms, In (mod_of n, syms) (load_mod_syms names) /\ In n syms.
Proof.
  intros names n H. unfold load_mod_syms. apply sort_In in H.
  exists (filter (fun x => name_eqb (mod_of x) (mod_of n)) (sort_names names)). split.
  - apply in_map_iff. exists (mod_of n). split; [reflexivity|].
    destruct (runs_cover (sort_names names) None n H) as [H1|H1]; [assumption|discriminate].
  - apply filter_In. split; [assumption|]. now apply name_eqb_eq.
Qed.
Print Assumptions modsyms_every_symbol_loaded.

(* ... but a module can be loaded more than once: the sorted names of one module
   need not be contiguous (a.az < a.b.y < a.x) *)
Theorem modsyms_grouping_contiguous_refuted :
  exists names, NoDup names /\ ~ NoDup (map fst (load_mod_syms names)).
Proof.
  (* a.az, a.b.y, a.x *)
  exists [[97; 46; 97; 122]; [97; 46; 98; 46; 121]; [97; 46; 120]]. split.
  - repeat constructor; cbn; intuition discriminate.
  - vm_compute. intros N. inversion N as [|? ? H1 H2]; subst. apply H1. right. now left.
Qed.
Print Assumptions modsyms_grouping_contiguous_refuted.

(* the contracts are satisfiable: the concrete reading of CPython used for the
   end-to-end comparison meets every premise above *)
Example c_ops_meets_contracts :
  (forall b, in_range 64 b -> o_ll c_ops b = PLong (sgn 64 b)) /\
  (forall b, in_range 64 b -> o_ull c_ops b = PLong b) /\
  (forall z, - 2 ^ 63 <= z < 2 ^ 63 -> o_as_ll c_ops (PLong z) = Some (wrap 64 z)) /\
  (forall z, in_range 64 z -> o_as_ull c_ops (PLong z) = Some z) /\
  (forall l xs i x, l = PList xs -> 0 <= i < Z.of_nat (length xs) ->
     o_list_set c_ops l i x = PList (upd xs (Z.to_nat i) x)).
Proof.
  split; [|split; [|split; [|split]]].
  - intros b _. reflexivity.
  - intros b _. reflexivity.
  - intros z Hz. cbn. assert ((- 9223372036854775808 <=? z) && (z <? 9223372036854775808) = true) as ->; [|reflexivity].
    apply andb_true_iff. split; [apply Z.leb_le|apply Z.ltb_lt]; lia.
  - intros z Hz. unfold in_range in Hz. cbn in *.
    assert ((0 <=? z) && (z <? 18446744073709551616) = true) as ->; [|reflexivity].
    apply andb_true_iff. split; [apply Z.leb_le|apply Z.ltb_lt]; lia.
  - intros l xs i x -> _. reflexivity.
Qed.

Example roundtrip_nontrivial :
  py_list [VInt 8 true 255; VInt 16 false 65535; VBool true; VF32 1069547520; VStr [97; 0; 98]] =
  PList [PLong (-1); PLong 65535; PBool true; PFloat 4609434218613702656; PStr [97; 0; 98]].
Proof. reflexivity. Qed.
