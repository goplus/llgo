(* C15 - property theorems only.  Each is derived from the lemmas of Proofs.v (the FieldByName
   ones from FieldByName.v) or proved in place where that takes a line or two, and is followed
   by Print Assumptions (the driver re-prints them on every run). *)
From Coq Require Import Ascii String Permutation.
From LLGoV Require Import C15.Model C15.FieldByName C15.Proofs Lib.BV.
Local Open Scope N_scope.

(* On every well-formed type, the string reflect.Type.String returns under llgo (the string the
   compiler stores, with the star the ExtraStar flag stands for put back by the run time) is the
   string Go documents: package NAME qualification, struct tags quoted, embedded fields, variadic
   ...T, interface {}, func with and without results, chan directions including chan (<-chan T),
   map (pointer keys included), array, defined pointer types, generic instances with import-path
   qualified type arguments (main for package main).  fx = true is the code that exists; the same
   statement holds for the code before the repairs (fx = false) on its smaller well-formed set.
   [wf true false] excludes struct/func/non-empty interface literals as type arguments (the
   types.TypeString fallback is not modelled). *)
Theorem str_eq_go_partial : forall fx t, wf fx false t = true -> llgo_str fx t = go_type_string t.
Proof. intros fx t. exact (proj1 (str_all fx) t false). Qed.
Print Assumptions str_eq_go_partial.

Example str_eq_go_nontrivial :
  let emb := TNamed (Some (lit "verifprog/sub/inner", lit "pkgb")) (lit "Item") TsNil
                    (TStruct (FsCons (lit "ID") false [] (TBasic 2) FsNil)) in
  let t := TStruct (FsCons (lit "A") false (lit "json:""a""") (TPtr (TPtr (TBasic 2)))
                   (FsCons (lit "Item") true [] (TPtr emb)
                   (FsCons (lit "f") false [] (TFunc (TsCons (TBasic 2) (TsCons (TSlice (TBasic 17)) TsNil))
                                                      (TsCons (TBasic 2) (TsCons (TChan DBoth (TChan DRecv emb)) TsNil)) true)
                   (FsCons (lit "g") false []
                      (TNamed (Some (lit "verifprog/sub/inner", lit "pkgb")) (lit "Pair")
                              (TsCons (TBasic 17) (TsCons (TSlice (TPtr t_P)) TsNil)) TCut)
                   (FsCons (lit "i") false []
                      (TIface (MsCons (lit "M") true None (TFunc (TsCons (TMap (TPtr (TBasic 8)) t_P) TsNil) TsNil false)
                              (MsCons (lit "x") false (Some (lit "main")) (TFunc TsNil (TsCons (TBasic 1) TsNil) false) MsNil)))
                      FsNil))))) in
  wf true false t = true /\
  go_type_string t = lit "struct { A **int ""json:\""a\""""; *pkgb.Item; f func(int, ...string) (int, chan (<-chan pkgb.Item)); g pkgb.Pair[string,[]*main.P]; i interface { M(map[*uint8]main.P); main.x() bool } }".
Proof. split; vm_compute; reflexivity. Qed.

(* The five shapes the repairs concern are well-formed now and were refuted before: *)
Theorem str_repaired_shapes :
  wf true false t_repaired = true /\ wf false false t_repaired = false /\
  llgo_str true t_repaired = go_type_string t_repaired /\ llgo_str false t_repaired <> go_type_string t_repaired.
Proof.
  assert (W : wf true false t_repaired = true) by reflexivity.
  split; [exact W|]. split; [reflexivity|]. split; [exact (str_eq_go_partial true t_repaired W)|].
  vm_compute. discriminate.
Qed.
Print Assumptions str_repaired_shapes.

(* before the repair, type P *int printed *main.P, and **main.P for *P *)
Theorem str_named_pointer_unfixed_refuted :
  exists t, llgo_str false t <> go_type_string t /\ llgo_str false t = lit "*main.P".
Proof.
  destruct named_pointer_strings as (E & G & _). exists t_P. split; [|exact E].
  rewrite E, G. vm_compute. discriminate.
Qed.
Print Assumptions str_named_pointer_unfixed_refuted.

(* before the repair, struct tags were not part of llgo's string *)
Theorem str_struct_tag_unfixed_refuted :
  llgo_str false t_tagged = lit "struct { A int }" /\
  go_type_string t_tagged = lit "struct { A int ""json:\""a\"""" }".
Proof. vm_compute. split; reflexivity. Qed.
Print Assumptions str_struct_tag_unfixed_refuted.

(* before the repair, chan (<-chan int) lost its parentheses *)
Theorem str_chan_parens_unfixed_refuted :
  llgo_str false t_chanchan = lit "chan <-chan int" /\ go_type_string t_chanchan = lit "chan (<-chan int)".
Proof. vm_compute. split; reflexivity. Qed.
Print Assumptions str_chan_parens_unfixed_refuted.

(* before the repair, map[*int]string printed as map[int]string *)
Theorem str_pointer_key_unfixed_refuted :
  llgo_str false t_ptrkey = lit "map[int]string" /\ go_type_string t_ptrkey = lit "map[*int]string".
Proof. vm_compute. split; reflexivity. Qed.
Print Assumptions str_pointer_key_unfixed_refuted.

(* before the repair, a type of package main as type argument was qualified with the module path *)
Theorem str_typearg_main_unfixed_refuted :
  llgo_str false t_G_T = lit "main.G[verifprog.T]" /\ go_type_string t_G_T = lit "main.G[main.T]".
Proof. vm_compute. split; reflexivity. Qed.
Print Assumptions str_typearg_main_unfixed_refuted.

(* flags: Named is Go's definition; ExtraStar is the parity of the pointer chain *)
Theorem tflag_named_agrees : forall t, llgo_named t = go_named t.
Proof. now intros []. Qed.
Print Assumptions tflag_named_agrees.

Theorem tflag_extrastar_parity : forall fx t, es fx t = xorb (ptr_odd t) (es fx (ptr_base t)).
Proof.
  intros fx t. induction t; try reflexivity; cbn [es ptr_odd ptr_base].
  - symmetry. apply xorb_false_l.
  - rewrite IHt. apply negb_xorb_l.
Qed.
Print Assumptions tflag_extrastar_parity.

(* a defined type never carries ExtraStar (so the flag is computed without looking through
   declarations, and type N *N terminates) *)
Theorem tflag_named_no_extrastar : forall pkg name targs und, es true (TNamed pkg name targs und) = false.
Proof. reflexivity. Qed.
Print Assumptions tflag_named_no_extrastar.

(* method tables: sorted by Id, a permutation of the method set (so duplicate-free when the
   Ids are), with the exported count of the set *)
Theorem method_table_sorted_complete : forall ms,
  sorted_by meth_id (method_table ms) /\ Permutation ms (method_table ms) /\
  (NoDup (map meth_id ms) -> NoDup (map meth_id (method_table ms))) /\
  xcount (method_table ms) = xcount ms.
Proof.
  intros ms. repeat split.
  - exact (method_table_sorted ms).
  - exact (method_table_perm ms).
  - exact (method_table_nodup ms).
  - exact (xcount_table ms).
Qed.
Print Assumptions method_table_sorted_complete.

(* what reflect exposes (the first Xcount entries) is Go's list of exported methods when exported
   names are ASCII and package paths start above 'Z' ... *)
Theorem exported_methods_partial : forall ms,
  ascii_upper_names ms -> paths_above_Z ms -> exported_methods ms = go_exported_methods ms.
Proof. exact exported_prefix_ascii. Qed.
Print Assumptions exported_methods_partial.

(* ... and is wrong otherwise *)
Theorem exported_methods_refuted : exists ms, exported_methods ms <> go_exported_methods ms.
Proof. exists ms_nonascii. exact (proj1 exported_prefix_nonascii_wrong). Qed.
Print Assumptions exported_methods_refuted.

(* DeepEqual: reflexive except for NaN and non-nil functions inside the value itself *)
Theorem deep_equal_reflexive_except_nan_func : forall fuel h a r,
  clean a = true -> deep_equal fuel h a a = Some r -> r = true.
Proof.
  unfold deep_equal. intros fuel h a r Hc H.
  destruct (deep fuel h [] a a) as [[b vs]|] eqn:E; [|discriminate].
  inversion H; subst. exact (deep_refl fuel h a [] r vs Hc E).
Qed.
Print Assumptions deep_equal_reflexive_except_nan_func.

Theorem deep_equal_nan_func_not_reflexive :
  deep_equal 5 [] (VFloat 14 FNaN) (VFloat 14 FNaN) = Some false /\
  deep_equal 5 [] (VFunc 19 false) (VFunc 19 false) = Some false.
Proof. split; [exact deep_equal_nan|exact (proj1 deep_equal_func)]. Qed.
Print Assumptions deep_equal_nan_func_not_reflexive.

Theorem deep_equal_symmetric_partial : forall fuel h a b,
  nomap_heap h = true -> nomap a = true -> nomap b = true ->
  deep_equal fuel h a b = deep_equal fuel h b a.
Proof. intros fuel h a b Hh Ha Hb. unfold deep_equal. now rewrite (deep_sym fuel h Hh a b [] Ha Hb). Qed.
Print Assumptions deep_equal_symmetric_partial.

Example deep_equal_examples :
  (let h := [(1, OArr []); (2, OArr []); (3, OMap []); (4, OMap [])] in
   deep_equal 5 h (VSlice 23 0 0 0) (VSlice 23 1 0 0) = Some false /\
   deep_equal 5 h (VSlice 23 1 0 0) (VSlice 23 2 0 0) = Some true /\
   deep_equal 5 h (VMap 21 0) (VMap 21 3) = Some false /\
   deep_equal 5 h (VMap 21 3) (VMap 21 4) = Some true) /\
  (let h := [(1, OVal (VStruct 25 [VInt 2 7; VPtr 22 1])); (2, OVal (VStruct 25 [VInt 2 7; VPtr 22 2]))] in
   deep_equal 6 h (VPtr 22 1) (VPtr 22 2) = Some true).
Proof. repeat split; reflexivity. Qed.

Local Open Scope Z_scope.

(* Value.Convert between any two integer kinds, from either storage form of the operand, yields
   Go's conversion T(x): the operand is extended according to the SOURCE kind (it is read with
   Int or Uint), wrapped to the width of the target kind and read back with the target's sign. *)
Theorem convert_int_matches_go : forall src dst indir x,
  krange src x -> conv_read true src dst indir x = go_conv dst x.
Proof.
  intros src dst indir x H. unfold conv_read. rewrite (convert_int_value src dst indir x H).
  apply read_ival_of, go_conv_range.
Qed.
Print Assumptions convert_int_matches_go.

(* ... and the resulting Value is the canonical direct Value of T(x) *)
Theorem convert_int_result : forall src dst indir x,
  krange src x -> convert_int true (ival_of src indir x) dst = ival_of dst false (go_conv dst x).
Proof. exact convert_int_value. Qed.
Print Assumptions convert_int_result.

Example convert_int_nontrivial :
  krange KInt (-1) /\ conv_read true KInt KUint8 false (-1) = 255 /\
  conv_read true KInt8 KUint32 true (-128) = 4294967168 /\ conv_read true KUint64 KInt16 false (2 ^ 63 + 32768) = -32768.
Proof. repeat split; vm_compute; congruence. Qed.

(* the makeInt before the repair (fx = false) kept the whole word *)
Theorem convert_int_unfixed_refuted :
  conv_read false KInt KUint8 false (-1) = 18446744073709551615 /\ go_conv KUint8 (-1) = 255 /\
  conv_read false KInt KInt8 true 128 = 128 /\ go_conv KInt8 128 = -128.
Proof. vm_compute. repeat split. Qed.
Print Assumptions convert_int_unfixed_refuted.

(* SetInt(x) / SetUint(x) followed by Int() / Uint() returns x narrowed to the kind's width,
   which is x itself when x is a value of the kind *)
Theorem set_get_roundtrip : forall k x,
  set_read k x = Some (go_conv k x) /\ (krange k x -> set_read k x = Some x).
Proof. intros k x. split; [|intros H; rewrite <- (go_conv_id k x H) at 2]; apply set_get. Qed.
Print Assumptions set_get_roundtrip.

(* OverflowInt / OverflowUint (argument an int64 resp. uint64) *)
Theorem overflow_iff_not_representable : forall k x,
  (if ksigned k then - 2 ^ 63 <= x < 2 ^ 63 else 0 <= x < 2 ^ 64) ->
  overflow k x = true <-> ~ krange k x.
Proof. intros k x _. apply overflow_spec. Qed.
Print Assumptions overflow_iff_not_representable.

(* floats: with rounding abstract (narrowing after widening is the identity; integers up to 2^53
   resp. 2^24 are exact) float32 -> float64 -> float32 and the same-kind conversions return the
   operand, widening is injective, and int -> float -> int is Go's integer conversion *)
Theorem float_convert_roundtrip :
  forall (f32 f64 : Type) (widen : f32 -> f64) (narrow : f64 -> f32),
  (forall x, narrow (widen x) = x) ->
  forall v, cvt_float f32 f64 widen narrow (cvt_float f32 f64 widen narrow v KFloat64) (fkind_of f32 f64 v) = v.
Proof. intros f32 f64 widen narrow NW v. destruct v; cbn; [now rewrite NW|reflexivity]. Qed.
Print Assumptions float_convert_roundtrip.

Theorem float_widen_is_injective :
  forall (f32 f64 : Type) (widen : f32 -> f64) (narrow : f64 -> f32),
  (forall x, narrow (widen x) = x) ->
  forall x y, cvt_float f32 f64 widen narrow (F32 f32 f64 x) KFloat64 = cvt_float f32 f64 widen narrow (F32 f32 f64 y) KFloat64 -> x = y.
Proof.
  intros f32 f64 widen narrow NW x y E. inversion E as [W].
  rewrite <- (NW x), <- (NW y). now rewrite W.
Qed.
Print Assumptions float_widen_is_injective.

Theorem int_float_int_exact_partial :
  forall (f32 f64 : Type) (widen : f32 -> f64) (narrow : f64 -> f32) (of_int : Z -> f64) (to_int : f64 -> Z),
  (forall n, Z.abs n <= 2 ^ 53 -> to_int (of_int n) = n) ->
  (forall n, Z.abs n <= 2 ^ 24 -> widen (narrow (of_int n)) = of_int n) ->
  forall src dst indir x, krange src x ->
  (Z.abs x <= 2 ^ 53 ->
   value_read (cvt_float_int f32 f64 widen to_int true
                 (cvt_int_float f32 f64 narrow of_int (ival_of src indir x) KFloat64) dst) = go_conv dst x) /\
  (Z.abs x <= 2 ^ 24 ->
   value_read (cvt_float_int f32 f64 widen to_int true
                 (cvt_int_float f32 f64 narrow of_int (ival_of src indir x) KFloat32) dst) = go_conv dst x).
Proof.
  intros f32 f64 widen narrow of_int to_int H53 H24 src dst indir x H.
  pose proof (pow2_mono 24 53).
  split; intros Hx; apply int_float_int; auto; [apply H24, Hx|apply H53; lia].
Qed.
Print Assumptions int_float_int_exact_partial.

Local Open Scope N_scope.

(* The breadth-first search of FieldByNameFunc (work queue per depth level, count / nextCount
   multiplicities handed down to embedded structs, annihilation at equal depth, visited set) returns
   what the Go rule over PATHS prescribes: the field at the shallowest depth, found iff exactly
   one path of embedded fields reaches a field of that name at that depth.  Both halves are instances
   of FieldByName.field_by_name_func_eq_go, which holds for every graph, root and matcher. *)
Theorem field_by_name_eq_go_bounded :
  (forall g, List.length g = 3%nat -> Forall (fun o => In o opts_A) g ->
     forall nm, In nm (search_names 3) -> field_by_name true g 0 nm = go_field_by_name_func g 0 (N.eqb nm)) /\
  (forall g, List.length g = 4%nat -> Forall (fun o => In o opts_B) g ->
     forall nm, In nm (search_names 4) -> field_by_name true g 0 nm = go_field_by_name_func g 0 (N.eqb nm)).
Proof. split; intros; apply field_by_name_eq_go. Qed.
Print Assumptions field_by_name_eq_go_bounded.

(* the multiplicity of a doubly reachable struct must be handed down: without it (prop = false) a
   field two levels below the join of a diamond is reported although two paths reach it *)
Theorem field_by_name_no_propagation_refuted :
  In [emb_field 1; emb_field 1] opts_A /\
  field_by_name false g_diamond_below 0 1 = Some [0; 0; 0] /\
  field_by_name true g_diamond_below 0 1 = None /\
  go_field_by_name_func g_diamond_below 0 (N.eqb 1) = None.
Proof.
  split.
  - exact (nth_error_In opts_A 24 eq_refl).
  - vm_compute. repeat split.
Qed.
Print Assumptions field_by_name_no_propagation_refuted.
