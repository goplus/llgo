(* C15 - llgo's type strings are Go's on the well-formed types [wf] (str_all, one mutual induction
   over the type syntax); the ExtraStar flag; method tables as insertion sort by Id, and when their
   first Xcount entries are the exported methods; DeepEqual reflexive and symmetric (inductions on
   the fuel); integer Values: everything goes through go_conv, the retraction onto a kind's range;
   last, the two bounded search domains a FieldByName statement of Props.v is written over. *)
From Coq Require Import Ascii String Permutation.
From LLGoV Require Import C15.Model Lib.BV.
Local Open Scope N_scope.

Definition pkg_ok (fx q : bool) (pkg : option pkgid) : bool :=
  match pkg with
  | Some p => if q then str_eqb (targ_pkg fx p) (go_pkg true p) else true
  | None => true
  end.

Definition is_tsnil (ts : tys) : bool := match ts with TsNil => true | _ => false end.
Definition is_fsnil (fs : fields) : bool := match fs with FsNil => true | _ => false end.
Definition is_msnil (ms : methods) : bool := match ms with MsNil => true | _ => false end.
Definition is_nil (s : str) : bool := match s with [] => true | _ => false end.

(* The types on which llgo's string is the one Go documents.  q: inside a type argument list.
   For the code that exists (fx = true) the exclusions are: struct, func and non-empty interface
   literals as type arguments (types.TypeString fallback, not modelled), and packages whose
   type-argument qualifier differs (a non-main package built as command-line-arguments, patched
   runtime packages).  Before the repairs (fx = false) also: defined types whose underlying type
   carries the ExtraStar flag (type P *int), struct tags, chan of a receive-only chan, map keys
   carrying the ExtraStar flag (pointer keys), main-package types as type arguments. *)
Fixpoint wf (fx q : bool) (t : ty) : bool :=
  match t with
  | TBasic _ => true
  | TCut => true
  | TNamed pkg _ targs und => (fx || negb (es fx und)) && pkg_ok fx q pkg && wf_targs fx targs
  | TPtr e => wf fx q e
  | TSlice e => wf fx q e
  | TArray _ e => wf fx q e
  | TMap k e => (fx || negb (es fx k)) && wf fx q k && wf fx q e
  | TChan d e => wf fx q e && (fx || negb (match d with DBoth => is_recv_chan e | _ => false end))
  | TFunc ps rs v => negb q && wf_params fx ps v && wf_list fx rs
  | TStruct fs => negb q && wf_fields fx fs
  | TIface ms => if q then is_msnil ms else wf_methods fx ms
  end
with wf_targs (fx : bool) (ts : tys) : bool :=
  match ts with TsNil => true | TsCons t r => wf fx true t && wf_targs fx r end
with wf_list (fx : bool) (ts : tys) : bool :=
  match ts with TsNil => true | TsCons t r => wf fx false t && wf_list fx r end
with wf_params (fx : bool) (ts : tys) (v : bool) : bool :=
  match ts with
  | TsNil => true
  | TsCons t TsNil => if v then match t with TSlice e => wf fx false e | _ => false end else wf fx false t
  | TsCons t r => wf fx false t && wf_params fx r v
  end
with wf_fields (fx : bool) (fs : fields) : bool :=
  match fs with
  | FsNil => true
  | FsCons _ _ tag t r => (fx || is_nil tag) && wf fx false t && wf_fields fx r
  end
with wf_methods (fx : bool) (ms : methods) : bool :=
  match ms with
  | MsNil => true
  | MsCons _ _ _ sig r =>
      match sig with TFunc ps rs v => wf_params fx ps v && wf_list fx rs | _ => false end && wf_methods fx r
  end.

Lemma star_if_false s : star_if false s = s.
Proof. reflexivity. Qed.

(* structStr and interfaceStr end a non-empty field or method list with a space; Go's lists do not,
   there the space belongs to the closing brace of a non-empty literal *)
Definition tail_sp (first nil : bool) : str := if first && nil then [] else [c_sp].

(* the guard wf puts on the underlying type of a defined type and on a map key *)
Lemma guard_eq (fx b : bool) : fx || negb b = true -> (if fx then false else b) = false /\ fx && b = b.
Proof. now destruct fx, b. Qed.

Lemma tag_eq fx tag : (fx || is_nil tag) = true ->
  tag_str fx tag = match tag with [] => [] | _ => [c_sp] ++ go_quote tag end.
Proof. destruct fx, tag; cbn; auto; discriminate. Qed.

Lemma chan_eq fx d e s :
  (fx || negb (match d with DBoth => is_recv_chan e | _ => false end)) = true ->
  dir_str d ++ [c_sp] ++ chan_elem fx d e s =
  match d with
  | DBoth => s_chan ++ [c_sp] ++ (if is_recv_chan e then [c_lp] ++ s ++ [c_rp] else s)
  | DSend => s_chansend ++ [c_sp] ++ s
  | DRecv => s_recvchan ++ [c_sp] ++ s
  end.
Proof.
  unfold chan_elem. destruct d; cbn [dir_str]; rewrite ?andb_false_r; try reflexivity.
  destruct fx, (is_recv_chan e); cbn; auto; discriminate.
Qed.

(* interfaceStr drops the keyword of the signature's string *)
Lemma func_tail s : skipn 4 (s_func_o ++ s) = [c_lp] ++ s.
Proof. reflexivity. Qed.

(* llgo's string, with the star of the flag put back, is Go's on well-formed types; q: inside a type
   argument list, where llgo renders with reflectTypeArgBaseString and Go qualifies with the import path *)
Lemma str_all fx :
  (forall t q, wf fx q t = true ->
      star_if (es fx t) ((if q then llgo_targ else llgo_Str) fx t) = go_str q t) /\
  (forall ts,
      (wf_list fx ts = true -> llgo_list fx ts = go_list false ts) /\
      (forall v, wf_params fx ts v = true -> llgo_params fx ts v = go_params false ts v) /\
      (wf_targs fx ts = true -> llgo_targs fx ts = go_targs ts)) /\
  (forall fs, wf_fields fx fs = true -> forall first,
      llgo_fields fx fs first = go_fields false fs first ++ tail_sp first (is_fsnil fs)) /\
  (forall ms, wf_methods fx ms = true -> forall first,
      llgo_methods fx ms first = go_methods false ms first ++ tail_sp first (is_msnil ms)).
Proof.
  apply ty_mutind.
  - now intros k [].
  - now intros [].
  - intros pkg name targs [_ [_ IHt]] und _ q H.
    cbn [wf] in H. rewrite !andb_true_iff in H. destruct H as [[He Hp] Ht].
    cbn [es]. rewrite (proj1 (guard_eq _ _ He)).
    destruct q; cbn [star_if llgo_Str llgo_targ go_str]; rewrite (IHt Ht).
    + destruct pkg as [p|]; [apply str_eqb_eq in Hp; rewrite Hp|]; destruct targs; now rewrite <- ?app_assoc.
    + destruct pkg, targs; cbn [go_pkg]; now rewrite <- ?app_assoc.
  - (* a pointer type flips the flag; its stored string keeps a star of its own only when the
       element already carried the flag *)
    intros e IH q H. specialize (IH q H).
    destruct q; cbn [es llgo_Str llgo_targ go_str] in *; rewrite <- IH; now destruct (es fx e).
  - intros e IH q H. specialize (IH q H).
    destruct q; cbn [es star_if llgo_Str llgo_targ go_str] in *; now rewrite IH.
  - intros n e IH q H. specialize (IH q H).
    destruct q; cbn [es star_if llgo_Str llgo_targ go_str] in *; now rewrite IH.
  - intros k IHk e IHe q H.
    cbn [wf] in H. rewrite !andb_true_iff in H. destruct H as [[Hes Hk] He].
    specialize (IHk q Hk). specialize (IHe q He).
    destruct q; cbn [es star_if llgo_Str llgo_targ go_str] in *;
      rewrite (proj2 (guard_eq _ _ Hes)); now rewrite IHk, IHe.
  - intros d e IH q H. cbn [wf] in H. apply andb_true_iff in H as [H Hd]. specialize (IH q H).
    destruct q; cbn [es star_if llgo_Str llgo_targ go_str] in *;
      rewrite (chan_eq fx d e _ Hd); now rewrite IH.
  - intros ps [_ [IHp _]] rs [IHr _] v [] H; cbn [wf negb andb] in H; [discriminate|].
    apply andb_true_iff in H as [Hp Hr]. specialize (IHr Hr).
    cbn [es star_if llgo_Str go_str]. rewrite (IHp v Hp).
    destruct rs as [|r [|r2 rs2]]; [reflexivity|cbn [llgo_list go_list] in IHr|]; now rewrite IHr.
  - intros fs IH [] H; cbn [wf negb andb] in H; [discriminate|].
    cbn [es star_if llgo_Str go_str]. rewrite (IH H true).
    destruct fs; [reflexivity|]. cbn [is_fsnil tail_sp andb]. now rewrite <- app_assoc.
  - intros ms IH [] H; cbn [wf] in H; [now destruct ms|].
    cbn [es star_if llgo_Str go_str]. rewrite (IH H true).
    destruct ms; [reflexivity|]. cbn [is_msnil tail_sp andb]. now rewrite <- app_assoc.
  - now repeat split.
  - intros t IHt r [IHr1 [IHr2 IHr3]]. repeat split.
    + intros H. cbn [wf_list] in H. apply andb_true_iff in H as [H H0]. cbn [llgo_list go_list].
      now rewrite (IHt false H), (IHr1 H0).
    + intros v H. cbn [llgo_params go_params]. destruct r.
      * cbn [wf_params] in H. destruct v; [|now rewrite (IHt false H)].
        destruct t; try discriminate.
        specialize (IHt false H). cbn [es star_if llgo_Str go_str] in IHt.
        apply app_inv_head in IHt. now rewrite IHt.
      * cbn [wf_params] in H. apply andb_true_iff in H as [H H0]. now rewrite (IHt false H), (IHr2 v H0).
    + intros H. cbn [wf_targs] in H. apply andb_true_iff in H as [H H0]. cbn [llgo_targs go_targs].
      now rewrite (IHt true H), (IHr3 H0).
  - intros _ first. now destruct first.
  - intros name emb tag t IHt r IHr H first. cbn [wf_fields] in H.
    rewrite !andb_true_iff in H. destruct H as [[Htag Ht] Hr].
    cbn [llgo_fields go_fields is_fsnil]. rewrite (IHt false Ht), (IHr Hr false), (tag_eq fx tag Htag).
    unfold tail_sp. rewrite andb_false_r. now rewrite <- !app_assoc.
  - intros _ first. now destruct first.
  - intros name exp pn sig IHs r IHr H first. cbn [wf_methods] in H.
    apply andb_true_iff in H as [H Hr]. destruct sig; try discriminate.
    specialize (IHs false H). cbn [es star_if] in IHs.
    cbn [llgo_methods go_methods is_msnil es star_if]. rewrite IHs, (IHr Hr false).
    unfold tail_sp. rewrite andb_false_r.
    cbn [go_str]. rewrite func_tail. now rewrite <- !app_assoc.
Qed.

(* what the repairs changed: before them (fx = false) llgo's string differs from Go's on the
   shapes below, now (fx = true) these shapes are well-formed and the strings agree *)

Definition p_main : pkgid := (lit "verifprog", lit "main").
Definition t_int : ty := TBasic 2.
(* type P *int *)
Definition t_P : ty := TNamed (Some p_main) (lit "P") TsNil (TPtr t_int).

Lemma named_pointer_strings :
  llgo_str false t_P = lit "*main.P" /\ go_type_string t_P = lit "main.P" /\
  llgo_str false (TPtr t_P) = lit "**main.P" /\ go_type_string (TPtr t_P) = lit "*main.P".
Proof. vm_compute. repeat split. Qed.

Definition t_tagged : ty := TStruct (FsCons (lit "A") false (lit "json:""a""") t_int FsNil).
Definition t_chanchan : ty := TChan DBoth (TChan DRecv t_int).
Definition t_ptrkey : ty := TMap (TPtr t_int) (TBasic 17).
Definition t_T : ty := TNamed (Some p_main) (lit "T") TsNil (TStruct FsNil).
Definition t_G_T : ty := TNamed (Some p_main) (lit "G") (TsCons t_T TsNil) (TStruct FsNil).

(* one type that combines all five shapes: well-formed for the code that exists *)
Definition t_repaired : ty :=
  TStruct (FsCons (lit "A") false (lit "json:""a""") (TPtr t_P)
          (FsCons (lit "c") false [] t_chanchan
          (FsCons (lit "m") false (lit "k") t_ptrkey
          (FsCons (lit "g") false [] t_G_T FsNil)))).

(* parity of the number of pointer constructors above the first non-pointer constructor *)
Fixpoint ptr_odd (t : ty) : bool := match t with TPtr e => negb (ptr_odd e) | _ => false end.
Fixpoint ptr_base (t : ty) : ty := match t with TPtr e => ptr_base e | _ => t end.

(* the stored string never starts with the star the flag stands for: a pointer type with the
   flag stores the string of its element *)
Lemma es_ptr_stored fx e : es fx (TPtr e) = true -> llgo_Str fx (TPtr e) = llgo_Str fx e.
Proof. cbn [es llgo_Str]. intros H. apply negb_true_iff in H. now rewrite H. Qed.

Lemma str_ltb_irrefl a : str_ltb a a = false.
Proof.
  induction a as [|x a IH]; cbn; [reflexivity|].
  rewrite N.ltb_irrefl, N.eqb_refl, IH. reflexivity.
Qed.

Lemma str_ltb_trans a : forall b c, str_ltb a b = true -> str_ltb b c = true -> str_ltb a c = true.
Proof.
  induction a as [|x a IH]; intros [|y b] [|z c]; cbn; try discriminate; auto.
  rewrite !orb_true_iff, !andb_true_iff, !N.ltb_lt, !N.eqb_eq.
  intros [H1|[-> H1]] [H2|[-> H2]]; [left; lia|now left|now left|right; eauto].
Qed.

(* trichotomy: neither below the other means equal (totality of the order itself is str_leb_total) *)
Lemma str_ltb_total a : forall b, str_ltb a b = false -> str_ltb b a = false -> a = b.
Proof.
  induction a as [|x a IH]; intros [|y b]; cbn; try discriminate; auto.
  intros H1 H2.
  apply orb_false_iff in H1 as [L1 R1]. apply orb_false_iff in H2 as [L2 R2].
  apply N.ltb_ge in L1, L2. assert (x = y) by lia. subst.
  rewrite N.eqb_refl in R1, R2. f_equal. auto.
Qed.

Lemma str_leb_total a b : str_leb a b = false -> str_leb b a = true.
Proof.
  unfold str_leb. intros H. apply negb_false_iff in H. apply negb_true_iff.
  destruct (str_ltb a b) eqn:E; [|reflexivity].
  pose proof (str_ltb_trans _ _ _ E H) as C. rewrite str_ltb_irrefl in C. discriminate.
Qed.

Lemma str_leb_trans a b c : str_leb a b = true -> str_leb b c = true -> str_leb a c = true.
Proof.
  unfold str_leb. intros H1 H2. apply negb_true_iff in H1, H2. apply negb_true_iff.
  destruct (str_ltb c a) eqn:E; [|reflexivity].
  destruct (str_ltb a b) eqn:Eab.
  - rewrite (str_ltb_trans _ _ _ E Eab) in H2. discriminate.
  - assert (a = b) by (apply str_ltb_total; auto). subst. congruence.
Qed.

Inductive sorted_by (f : meth -> str) : list meth -> Prop :=
| sb_nil : sorted_by f []
| sb_one x : sorted_by f [x]
| sb_cons x y l : str_leb (f x) (f y) = true -> sorted_by f (y :: l) -> sorted_by f (x :: y :: l).

Lemma insert_sorted m l : sorted_by meth_id l -> sorted_by meth_id (insert_m m l).
Proof.
  induction 1 as [|x|x y l Hxy Hs IH]; cbn [insert_m] in *.
  - constructor.
  - destruct (str_leb (meth_id m) (meth_id x)) eqn:E; auto using sorted_by, str_leb_total.
  - destruct (str_leb (meth_id m) (meth_id x)) eqn:E, (str_leb (meth_id m) (meth_id y)) eqn:E2;
      auto using sorted_by, str_leb_total.
Qed.

Lemma method_table_sorted ms : sorted_by meth_id (method_table ms).
Proof.
  induction ms as [|m ms IH]; cbn; [constructor|]. now apply insert_sorted.
Qed.

Lemma insert_perm m l : Permutation (m :: l) (insert_m m l).
Proof.
  induction l as [|x l IH]; cbn [insert_m]; [reflexivity|].
  destruct (str_leb (meth_id m) (meth_id x)); [reflexivity|].
  etransitivity; [apply perm_swap|]. now constructor.
Qed.

Lemma method_table_perm ms : Permutation ms (method_table ms).
Proof.
  induction ms as [|m ms IH]; cbn; [constructor|].
  etransitivity; [|apply insert_perm]. now constructor.
Qed.

Lemma method_table_nodup ms : NoDup (map meth_id ms) -> NoDup (map meth_id (method_table ms)).
Proof.
  intros H. eapply Permutation_NoDup; [|exact H].
  apply Permutation_map, method_table_perm.
Qed.

Lemma xcount_perm l1 l2 : Permutation l1 l2 -> xcount l1 = xcount l2.
Proof.
  unfold xcount. induction 1; cbn; auto.
  - destruct (m_exp x); cbn; auto.
  - destruct (m_exp x), (m_exp y); cbn; auto.
  - congruence.
Qed.

(* the count stored in the descriptor is the number of exported methods of the type *)
Lemma xcount_table ms : xcount (method_table ms) = xcount ms.
Proof. symmetry. apply xcount_perm, method_table_perm. Qed.

(* when every exported Id sorts before every unexported Id, the first Xcount entries of a sorted
   table are exactly its exported entries *)
Definition exp_first (l : list meth) : Prop :=
  forall a b, In a l -> In b l -> m_exp a = true -> m_exp b = false ->
              str_ltb (meth_id a) (meth_id b) = true.

Lemma sorted_head_le x l : sorted_by meth_id (x :: l) ->
  forall y, In y l -> str_leb (meth_id x) (meth_id y) = true.
Proof.
  revert x. induction l as [|z l IH]; intros x Hs y Hin; [destruct Hin|].
  inversion Hs; subst. destruct Hin as [->|Hin]; [assumption|].
  eapply str_leb_trans; [eassumption|]. now apply IH.
Qed.

Lemma sorted_tail x l : sorted_by meth_id (x :: l) -> sorted_by meth_id l.
Proof. inversion 1; subst; [constructor|assumption]. Qed.

Lemma filter_none {A} (p : A -> bool) l : (forall y, In y l -> p y = false) -> filter p l = [].
Proof.
  induction l as [|x l IH]; intros H; [reflexivity|]. cbn.
  rewrite (H x (or_introl eq_refl)). apply IH. intros y Hy. apply H. now right.
Qed.

Lemma prefix_is_filter l :
  sorted_by meth_id l -> exp_first l ->
  firstn (xcount l) l = filter m_exp l.
Proof.
  induction l as [|x l IH]; intros Hs He; [reflexivity|].
  unfold xcount. cbn [filter]. destruct (m_exp x) eqn:Ex.
  - cbn [List.length firstn]. f_equal. apply IH.
    + eapply sorted_tail; eauto.
    + intros a b Ha Hb. apply He; now right.
  - (* x unexported: nothing exported can follow *)
    rewrite filter_none; [reflexivity|]. intros y Hy.
    destruct (m_exp y) eqn:Ey; [|reflexivity].
    pose proof (sorted_head_le x l Hs y Hy) as Hle. unfold str_leb in Hle.
    rewrite (He y x) in Hle by auto using in_eq, in_cons. discriminate.
Qed.

(* the first Xcount entries are the exported methods whenever exported names start with a byte up
   to 'Z' (as ASCII upper-case letters do) and the import paths of the packages of unexported
   methods start with a byte above 'Z' (lower-case letters, underscore, non-ASCII) *)
Definition ascii_upper_names (ms : list meth) : Prop :=
  forall m, In m ms -> m_exp m = true -> exists c r, m_name m = c :: r /\ c <= 90.
Definition paths_above_Z (ms : list meth) : Prop :=
  forall m, In m ms -> m_exp m = false -> exists c r, m_pkg m = c :: r /\ 90 < c.

Lemma exported_prefix_ascii ms :
  ascii_upper_names ms -> paths_above_Z ms -> exported_methods ms = go_exported_methods ms.
Proof.
  intros Hn Hp. unfold exported_methods, go_exported_methods.
  apply prefix_is_filter; [apply method_table_sorted|].
  intros a b Ha Hb Ea Eb.
  assert (I : forall m, In m (method_table ms) -> In m ms)
    by (intros m; apply Permutation_in, Permutation_sym, method_table_perm).
  destruct (Hn a (I a Ha) Ea) as [c [r [Na Lc]]]. destruct (Hp b (I b Hb) Eb) as [c' [r' [Nb Lc']]].
  unfold meth_id. rewrite Ea, Eb, Na, Nb. cbn [app str_ltb].
  apply orb_true_iff. left. apply N.ltb_lt. lia.
Qed.

(* without that premise the prefix is wrong: an exported name that starts with a non-ASCII
   upper-case letter sorts after every unexported Id *)
Definition ms_nonascii : list meth :=
  [Meth (lit "Zeta") true []; Meth [195; 132; 114; 103; 101; 114] true []; Meth (lit "alpha") false (lit "verifprog")].

Lemma exported_prefix_nonascii_wrong :
  exported_methods ms_nonascii <> go_exported_methods ms_nonascii /\
  map m_name (exported_methods ms_nonascii) = [lit "Zeta"; lit "alpha"] /\
  map m_name (go_exported_methods ms_nonascii) = [lit "Zeta"; [195; 132; 114; 103; 101; 114]].
Proof. vm_compute. repeat split. discriminate. Qed.

(* no NaN and no non-nil function value in the value tree itself (what lies behind pointers,
   slices and maps does not matter for reflexivity: identical references are equal) *)
Fixpoint clean (v : val) : bool :=
  match v with
  | VInt _ _ => true
  | VFloat _ f => match f with FNaN => false | FNum _ => true end
  | VFunc _ b => b
  | VPtr _ _ | VSlice _ _ _ _ | VMap _ _ => true
  | VStruct _ fs => (fix all (l : list val) := match l with [] => true | x :: r => clean x && all r end) fs
  | VArray _ fs => (fix all (l : list val) := match l with [] => true | x :: r => clean x && all r end) fs
  | VIface _ None => true
  | VIface _ (Some x) => clean x
  end.
Definition clean_all : list val -> bool :=
  fix all (l : list val) := match l with [] => true | x :: r => clean x && all r end.

Lemma clean_fields t fs : clean (VStruct t fs) = clean_all fs /\ clean (VArray t fs) = clean_all fs.
Proof. split; reflexivity. Qed.

Lemma all2_refl (f : list visit -> val -> val -> dres) :
  (forall x vs r vs', clean x = true -> f vs x x = Some (r, vs') -> r = true) ->
  forall xs vs r vs', clean_all xs = true -> all2 f vs xs xs = Some (r, vs') -> r = true.
Proof.
  intros Hf. induction xs as [|x xs IH]; intros vs r vs' Hc H.
  - cbn in H. now inversion H.
  - cbn [all2] in H. cbn [clean_all] in Hc. apply andb_true_iff in Hc as [Hx Hr].
    destruct (f vs x x) as [[b vs1]|] eqn:E; [|discriminate].
    rewrite (Hf x vs b vs1 Hx E) in H. exact (IH vs1 r vs' Hr H).
Qed.

Lemma deep_refl fuel h : forall a vs r vs',
  clean a = true -> deep fuel h vs a a = Some (r, vs') -> r = true.
Proof.
  induction fuel as [|fuel IH]; intros a vs r vs' Hc H; [discriminate|].
  cbn [deep] in H.
  destruct a as [t x|t f|t n|t p|t s o l|t m|t fs|t fs|t [x|]];
    rewrite ?N.eqb_refl, ?orb_diag, ?andb_diag in H; cbn [negb andb] in H.
  - (* VInt *) rewrite Z.eqb_refl in H. now inversion H.
  - (* VFloat *) destruct f; [|discriminate]. cbn [fl_eqb] in H. rewrite Z.eqb_refl in H. now inversion H.
  - (* VFunc *) cbn [clean] in Hc. subst n. now inversion H.
  - (* VPtr *) destruct (p =? 0), (visited_mem vs (mk_visit p p t)); now inversion H.
  - (* VSlice *) destruct (s =? 0), (visited_mem vs (mk_visit (skey s o l) (skey s o l) t)); now inversion H.
  - (* VMap *) destruct (m =? 0), (visited_mem vs (mk_visit m m t)); try now inversion H.
    destruct (hget h m) as [[v|es|kvs]|]; try discriminate.
    rewrite Nat.eqb_refl in H. now inversion H.
  - (* VStruct *) rewrite (proj1 (clean_fields t fs)) in Hc. exact (all2_refl (deep fuel h) IH fs vs r vs' Hc H).
  - (* VArray *) rewrite (proj2 (clean_fields t fs)) in Hc. exact (all2_refl (deep fuel h) IH fs vs r vs' Hc H).
  - (* VIface, non-nil *) exact (IH x vs r vs' Hc H).
  - (* VIface, nil *) now inversion H.
Qed.

(* NaN and non-nil functions are the exceptions *)
Lemma deep_equal_nan : deep_equal 5 [] (VFloat 14 FNaN) (VFloat 14 FNaN) = Some false.
Proof. reflexivity. Qed.
Lemma deep_equal_func : deep_equal 5 [] (VFunc 19 false) (VFunc 19 false) = Some false
                        /\ deep_equal 5 [] (VFunc 19 true) (VFunc 19 true) = Some true.
Proof. split; reflexivity. Qed.
(* but a pointer to NaN equals itself, and a second pointer to another NaN does not *)
Lemma deep_equal_ptr_nan :
  let h := [(1, OVal (VFloat 14 FNaN)); (2, OVal (VFloat 14 FNaN))] in
  deep_equal 5 h (VPtr 22 1) (VPtr 22 1) = Some true /\ deep_equal 5 h (VPtr 22 1) (VPtr 22 2) = Some false.
Proof. split; reflexivity. Qed.

Lemma mk_visit_sym a b t : mk_visit a b t = mk_visit b a t.
Proof.
  unfold mk_visit. destruct (b <? a) eqn:E1, (a <? b) eqn:E2; try reflexivity.
  - apply N.ltb_lt in E1, E2. lia.
  - apply N.ltb_ge in E1, E2. assert (a = b) by lia. now subst.
Qed.

(* symmetry is proved for values and heaps without maps: the map case iterates over the keys of the
   first operand, so the visited sets of the two orders differ *)
Fixpoint nomap (v : val) : bool :=
  match v with
  | VMap _ _ => false
  | VStruct _ fs => forallb nomap fs
  | VArray _ fs => forallb nomap fs
  | VIface _ (Some x) => nomap x
  | _ => true
  end.
Definition nomap_obj (o : obj) : bool :=
  match o with OVal v => nomap v | OArr es => forallb nomap es | OMap _ => false end.
Definition nomap_heap (h : heap) : bool := forallb (fun p => nomap_obj (snd p)) h.

Lemma nomap_hget h : nomap_heap h = true -> forall p o, hget h p = Some o -> nomap_obj o = true.
Proof.
  induction h as [|[i o'] h IH]; intros Hh p o H; [discriminate|].
  cbn in Hh. apply andb_true_iff in Hh as [H1 H2]. cbn [hget] in H.
  destruct (i =? p); [now inversion H; subst|]. eapply IH; eauto.
Qed.

Lemma forallb_window (f : val -> bool) l off len : forallb f l = true -> forallb f (window l off len) = true.
Proof.
  intros H. unfold window. set (r := skipn (N.to_nat off) l).
  rewrite <- (firstn_skipn (N.to_nat off) l), forallb_app in H. apply andb_true_iff in H as [_ H]. fold r in H.
  rewrite <- (firstn_skipn (N.to_nat len) r), forallb_app in H. now apply andb_true_iff in H as [H _].
Qed.

Lemma fl_eqb_sym a b : fl_eqb a b = fl_eqb b a.
Proof. destruct a, b; cbn; auto. apply Z.eqb_sym. Qed.

Lemma all2_sym (f : list visit -> val -> val -> dres) :
  (forall vs x y, nomap x = true -> nomap y = true -> f vs x y = f vs y x) ->
  forall xs ys vs, forallb nomap xs = true -> forallb nomap ys = true ->
                   all2 f vs xs ys = all2 f vs ys xs.
Proof.
  intros Hf. induction xs as [|x xs IH]; intros [|y ys] vs Hx Hy; cbn [all2]; try reflexivity.
  cbn in Hx, Hy. apply andb_true_iff in Hx as [Hx1 Hx2]. apply andb_true_iff in Hy as [Hy1 Hy2].
  rewrite (Hf vs x y Hx1 Hy1). destruct (f vs y x) as [[[|] vs1]|]; auto.
Qed.

Lemma deep_sym fuel h : nomap_heap h = true -> forall a b vs,
  nomap a = true -> nomap b = true -> deep fuel h vs a b = deep fuel h vs b a.
Proof.
  intros Hh. induction fuel as [|fuel IH]; intros a b vs Ha Hb; [reflexivity|].
  cbn [deep]. rewrite (N.eqb_sym (vtid b) (vtid a)).
  destruct (N.eqb_spec (vtid a) (vtid b)) as [E|E]; cbn [negb]; [|reflexivity].
  destruct a as [t x|t f|t n|t p|t s o l|t m|t fs|t fs|t [x|]];
    destruct b as [t' x'|t' f'|t' n'|t' p'|t' s' o' l'|t' m'|t' fs'|t' fs'|t' [x'|]];
    try reflexivity; try discriminate; cbn [vtid] in E; subst t'.
  (* left: the pairs of equal constructors that are not decided by computation (two maps are
     excluded by nomap, two nil interfaces are equal on both sides) *)
  - (* VInt *) now rewrite Z.eqb_sym.
  - (* VFloat *) now rewrite fl_eqb_sym.
  - (* VFunc *) now rewrite andb_comm.
  - (* VPtr *) rewrite (mk_visit_sym p' p t), (N.eqb_sym p' p).
    destruct (p =? 0), (p' =? 0); try reflexivity.
    destruct (visited_mem vs (mk_visit p p' t)), (p =? p'); try reflexivity.
    destruct (hget h p) as [[x|es|kvs]|] eqn:E1; destruct (hget h p') as [[y|es'|kvs']|] eqn:E2; try reflexivity.
    apply IH.
    + exact (nomap_hget h Hh _ _ E1).
    + exact (nomap_hget h Hh _ _ E2).
  - (* VSlice *)
    rewrite (mk_visit_sym (skey s' o' l') (skey s o l) t), (N.eqb_sym l' l), (N.eqb_sym s' s), (N.eqb_sym o' o).
    destruct (s =? 0), (s' =? 0); try reflexivity.
    destruct (visited_mem vs (mk_visit (skey s o l) (skey s' o' l') t)), (l =? l'), ((s =? s') && (o =? o'));
      try reflexivity.
    destruct (hget h s) as [[x|es|kvs]|] eqn:E1; destruct (hget h s') as [[y|es'|kvs']|] eqn:E2; try reflexivity.
    apply all2_sym; [intros; now apply IH| |].
    + apply forallb_window. exact (nomap_hget h Hh _ _ E1).
    + apply forallb_window. exact (nomap_hget h Hh _ _ E2).
  - (* VStruct *) apply all2_sym; [intros; now apply IH|exact Ha|exact Hb].
  - (* VArray *) apply all2_sym; [intros; now apply IH|exact Ha|exact Hb].
  - (* VIface, both non-nil *) apply IH; [exact Ha|exact Hb].
Qed.

Local Open Scope Z_scope.

Lemma kbits_bounds k : 0 < kbits k <= 64.
Proof. destruct k; cbn; lia. Qed.

Lemma krange_signed k x : ksigned k = true -> krange k x -> - 2 ^ 63 <= x < 2 ^ 63.
Proof.
  unfold krange. intros -> H.
  pose proof (kbits_bounds k). pose proof (pow2_mono (kbits k - 1) 63). lia.
Qed.
Lemma krange_unsigned k x : ksigned k = false -> krange k x -> 0 <= x < 2 ^ 64.
Proof. unfold krange. intros -> H. pose proof (kbits_bounds k). apply (in_range_mono (kbits k)); [lia|exact H]. Qed.

Lemma go_conv_range k x : krange k (go_conv k x).
Proof.
  pose proof (kbits_bounds k). unfold krange, go_conv.
  destruct (ksigned k); [apply sgn_bounds; [lia|]|]; apply wrap_range; lia.
Qed.

Lemma go_conv_id k x : krange k x -> go_conv k x = x.
Proof.
  pose proof (kbits_bounds k) as Hk. unfold krange, go_conv. destruct (ksigned k); intros H.
  - apply sgn_wrap; [lia|exact H].
  - apply wrap_small. exact H.
Qed.

Lemma read_ival_of k indir x : krange k x -> value_read (ival_of k indir x) = x.
Proof.
  (* an indirect Value holds a cell of the kind's width: reading it is go_conv k x by definition *)
  intros H. destruct indir; [exact (go_conv_id k x H)|].
  unfold value_read, ival_of, value_int, value_uint. cbn [iv_kind iv_indir iv_word].
  destruct (ksigned k) eqn:S.
  - apply sgn_wrap; [lia|exact (krange_signed k x S H)].
  - apply wrap_small. exact (krange_unsigned k x S H).
Qed.

(* makeInt narrows to the target kind: the word it stores is the 64-bit pattern of T(x) *)
Lemma narrow_bits_spec k x : narrow_bits k (wrap 64 x) = wrap 64 (go_conv k x).
Proof.
  (* narrow kinds truncate an already truncated word; an unsigned narrow pattern is its own zero
     extension; for the 64-bit kinds narrow_bits is the identity *)
  unfold go_conv. destruct k; cbn [narrow_bits ksigned kbits];
    rewrite ?(wrap_sgn_le 64 64), ?wrap_wrap_le, ?(wrap_wrap_ge _ 64) by lia; reflexivity.
Qed.

Lemma convert_int_value src dst indir x : krange src x ->
  convert_int true (ival_of src indir x) dst = ival_of dst false (go_conv dst x).
Proof.
  intros H. pose proof (read_ival_of src indir x H) as R.
  unfold convert_int, cvt_int, cvt_uint, make_int, value_read in *. cbn [iv_kind ival_of] in *.
  (* cvtInt and cvtUint both hand the 64-bit pattern of x to makeInt *)
  destruct (ksigned src) eqn:S; rewrite R.
  - now rewrite narrow_bits_spec.
  - rewrite <- (wrap_small 64 x (krange_unsigned src x S H)) at 1. now rewrite narrow_bits_spec.
Qed.

Lemma set_get k x : set_read k x = Some (go_conv k x).
Proof.
  unfold set_read, set_int, set_uint, go_conv, value_read, value_int, value_uint, ival_of.
  destruct (ksigned k) eqn:S; cbn [iv_indir iv_kind iv_word]; rewrite S; reflexivity.
Qed.

(* the shift pair of OverflowInt / OverflowUint computes the narrowed value *)
Lemma shifts_i64 w n x : 0 < w -> 0 <= n -> w + n = 64 -> shr_i64 (shl_i64 x n) n = sgn w (wrap w x).
Proof.
  intros Hw Hn E. unfold shr_i64, shl_i64. rewrite <- E, wrap_scale, sgn_scale by lia.
  apply Z.div_mul, Z.pow_nonzero; lia.
Qed.
Lemma shifts_u64 w n x : 0 <= w -> 0 <= n -> w + n = 64 -> shr_u64 (shl_u64 x n) n = wrap w x.
Proof.
  intros Hw Hn E. unfold shr_u64, shl_u64. rewrite <- E, wrap_scale by lia.
  apply Z.div_mul, Z.pow_nonzero; lia.
Qed.

Lemma overflow_trunc k x : overflow k x = negb (x =? go_conv k x).
Proof.
  pose proof (kbits_bounds k). unfold overflow, overflow_int, overflow_uint, go_conv.
  destruct (ksigned k); [rewrite (shifts_i64 (kbits k))|rewrite (shifts_u64 (kbits k))]; (reflexivity || lia).
Qed.

Lemma overflow_spec k x : overflow k x = true <-> ~ krange k x.
Proof.
  rewrite overflow_trunc, negb_true_iff, Z.eqb_neq. split.
  - intros Hne Hr. apply Hne. symmetry. now apply go_conv_id.
  - intros Hn E. apply Hn. rewrite E. apply go_conv_range.
Qed.

Section FloatProofs.
  Variables (f32 f64 : Type) (widen : f32 -> f64) (narrow : f64 -> f32) (of_int : Z -> f64) (to_int : f64 -> Z).

  Notation cvtF := (cvt_float f32 f64 widen narrow).
  Notation valF := (value_float f32 f64 widen).

  Lemma float_same_kind v : cvtF v (fkind_of f32 f64 v) = v.
  Proof. destruct v; reflexivity. Qed.
  Lemma float_widen_value v : valF (cvtF v KFloat64) = valF v.
  Proof. destruct v; reflexivity. Qed.

  (* integer -> float -> integer is Go's integer conversion as long as the float of kind fk holds
     the integer exactly *)
  Lemma int_float_int fk src dst indir x : krange src x ->
    valF (make_float f32 f64 narrow (of_int x) fk) = of_int x -> to_int (of_int x) = x ->
    value_read (cvt_float_int f32 f64 widen to_int true
                  (cvt_int_float f32 f64 narrow of_int (ival_of src indir x) fk) dst) = go_conv dst x.
  Proof.
    intros H Hf Hi. unfold cvt_int_float, cvt_float_int, make_int.
    rewrite (read_ival_of src indir x H), Hf, Hi, narrow_bits_spec.
    exact (read_ival_of dst false (go_conv dst x) (go_conv_range dst x)).
  Qed.
End FloatProofs.

Local Open Scope N_scope.

(* The rest of the file defines the embedding graphs that Props.field_by_name_eq_go_bounded
   quantifies over; FieldByName.v proves the equation for every graph. *)

(* all lists over an alphabet of length <= k *)
Fixpoint lists_upto {A} (alpha : list A) (k : nat) : list (list A) :=
  match k with
  | O => [[]]
  | S k' => [] :: flat_map (fun l => map (fun a => a :: l) alpha) (lists_upto alpha k')
  end.

(* the struct types of the two domains: up to k embedded fields (value or pointer does not matter
   to the search) whose targets are taken from [targets] (repetitions allowed: two edges to one
   type are the compressed form of a diamond), and a field named X (name 1) absent, first or last *)
Definition emb_field (t : N) : sfield := SField (100 + t) (Some t).
Definition x_field : sfield := SField 1 None.
Definition type_options (targets : list N) (k : nat) (xfirst : bool) : list (list sfield) :=
  flat_map (fun es => let fs := map emb_field es in
                      if xfirst then [fs; x_field :: fs; fs ++ [x_field]] else [fs; fs ++ [x_field]])
           (lists_upto targets k).

(* the names searched for: X and the name of every embedded field *)
Definition search_names (n : nat) : list N := 1 :: map (fun t => 100 + N.of_nat t) (seq 0 n).

(* domain A: 3 struct types, each with up to 2 embedded fields over all 3 types, X absent/first/last;
   domain B: 4 struct types, embedded fields over types 1..3 (type 0 is the root), X absent/last *)
Definition opts_A := type_options [0; 1; 2] 2 true.
Definition opts_B := type_options [1; 2; 3] 2 false.

(* without handing the multiplicity down (prop = false) the search finds a field that two paths
   reach: S embeds C twice (the compressed diamond), C embeds D, D has X *)
Definition g_diamond_below : sgraph :=
  [[emb_field 1; emb_field 1]; [emb_field 2]; [x_field]].
