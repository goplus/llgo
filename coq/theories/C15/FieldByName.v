(* C15 - reflect FieldByNameFunc: the breadth-first search over struct types returns what the Go
   rule over embedding paths prescribes, for every graph, root and matcher.

   Level by level, the queue of the search summarises the path list of the rule: a struct type
   not visited before stands in the queue once for all paths that end in it, with their number
   (saturating at 2) as its count and, where there is one path only, that path as its index path.
   Paths that end in a type visited earlier are dead: such a type has no matching field (the
   search went on) and everything it embeds is visited by the end of the level.  Within one level
   both sides are compared up to permutation, since the search scans a type field by field for all
   its paths at once, the rule path by path. *)
From Coq Require Import Permutation.
From LLGoV Require Import C15.Model.
Local Open Scope N_scope.

Lemma flat_map_nil {A B} (l : list A) : flat_map (fun _ => @nil B) l = [].
Proof. induction l; auto. Qed.

Lemma flat_map_eq_nil {A B} (f : A -> list B) l : flat_map f l = [] <-> forall x, In x l -> f x = [].
Proof.
  induction l as [|a l IH]; cbn; [easy|]. split.
  - intros E. apply app_eq_nil in E as [E1 E2]. intros x [<-|H]; [exact E1|exact (proj1 IH E2 x H)].
  - intros H. rewrite (H a (or_introl eq_refl)). apply IH. auto.
Qed.

Lemma flat_map_single {A B} (k : A -> B) l : flat_map (fun x => [k x]) l = map k l.
Proof. induction l; cbn; congruence. Qed.

Lemma flat_map_app_perm {A B} (h k : A -> list B) l :
  Permutation (flat_map (fun x => h x ++ k x) l) (flat_map h l ++ flat_map k l).
Proof.
  induction l as [|a l IH]; cbn; [constructor|].
  rewrite <- !app_assoc. apply Permutation_app_head.
  rewrite IH. apply Permutation_app_swap_app.
Qed.

Lemma filter_split_perm {A} (q a b : A -> bool) l :
  (forall x, In x l -> q x = a x || b x /\ a x && b x = false) ->
  Permutation (filter q l) (filter a l ++ filter b l).
Proof.
  induction l as [|x l IH]; intros H; cbn; [constructor|].
  destruct (H x (or_introl eq_refl)) as [Hq Hd]. rewrite Hq.
  assert (IH' := IH (fun y Hy => H y (or_intror Hy))).
  destruct (a x), (b x); try discriminate; cbn; auto using Permutation_cons_app.
Qed.

Lemma mem_N_In x l : mem_N x l = true <-> In x l.
Proof. apply existsb_eqb_In, N.eqb_eq. Qed.

Lemma mem_N_not_In x l : mem_N x l = false <-> ~ In x l.
Proof. rewrite <- mem_N_In. now destruct (mem_N x l). Qed.

Lemma cnt_get_set c t v s : cnt_get (cnt_set c t v) s = if t =? s then v else cnt_get c s.
Proof.
  unfold cnt_get. induction c as [|[t' v'] c IH]; cbn.
  - now destruct (t =? s).
  - destruct (N.eqb_spec t' t) as [->|Ht]; cbn.
    + now destruct (t =? s).
    + destruct (N.eqb_spec t' s) as [->|Hs]; [|exact IH].
      now rewrite (proj2 (N.eqb_neq t s)) by congruence.
Qed.

Definition npaths (ps : list (N * list N)) (t : N) : nat :=
  List.length (filter (fun p => fst p =? t) ps).

Lemma npaths_app ps qs t : npaths (ps ++ qs) t = (npaths ps t + npaths qs t)%nat.
Proof. unfold npaths. now rewrite filter_app, app_length. Qed.

Lemma npaths_perm ps qs t : Permutation ps qs -> npaths ps t = npaths qs t.
Proof.
  unfold npaths. induction 1 as [|x|x y|]; cbn; try congruence.
  - destruct (fst x =? t); cbn; congruence.
  - now destruct (fst x =? t), (fst y =? t).
Qed.

Lemma npaths_pos ps t : npaths ps t <> 0%nat <-> In t (map fst ps).
Proof.
  unfold npaths. induction ps as [|p ps IH]; cbn; [tauto|].
  destruct (N.eqb_spec (fst p) t); cbn; [intuition congruence|]. tauto.
Qed.

Lemma npaths_same s js t : npaths (map (pair s) js) t = if s =? t then List.length js else 0%nat.
Proof.
  unfold npaths. induction js as [|j js IH]; cbn; [now destruct (s =? t)|].
  revert IH. destruct (s =? t); cbn; congruence.
Qed.

Section Search.
Variables (g : sgraph) (mtch : N -> bool).

(* the loops inside matches_of and step_paths: what the fields [fs], numbered from [i], of a
   struct reached by the index path [idx] contribute *)
Fixpoint emit {B} (h : sfield -> list N -> list B) (idx : list N) (i : N) (fs : list sfield) : list B :=
  match fs with
  | [] => []
  | f :: r => h f (idx ++ [i]) ++ emit h idx (i + 1) r
  end.
Definition matching (f : sfield) (p : list N) : list (list N) := if mtch (sf_name f) then [p] else [].
Definition embedded (f : sfield) (p : list N) : list (N * list N) :=
  match sf_emb f with Some s => [(s, p)] | None => [] end.
Definition emit_at {B} (h : sfield -> list N -> list B) (p : N * list N) : list B :=
  emit h (snd p) 0 (sfields g (fst p)).

Lemma matches_of_emit ps : matches_of g mtch ps = flat_map (emit_at matching) ps.
Proof.
  apply flat_map_ext. intros p. unfold emit_at, matching. generalize 0.
  induction (sfields g (fst p)) as [|f r IH]; intros i; cbn; [reflexivity|].
  rewrite IH. now destruct (mtch (sf_name f)).
Qed.

Lemma step_paths_emit ps : step_paths g ps = flat_map (emit_at embedded) ps.
Proof.
  apply flat_map_ext. intros p. unfold emit_at, embedded. generalize 0.
  induction (sfields g (fst p)) as [|f r IH]; intros i; cbn; [reflexivity|].
  rewrite IH. now destruct (sf_emb f).
Qed.

Definition has_match (t : N) : bool := existsb (fun f => mtch (sf_name f)) (sfields g t).
Definition embeds (t s : N) : Prop := In (Some s) (map sf_emb (sfields g t)).

Lemma emit_matching_nil idx fs : forall i,
  emit matching idx i fs = [] <-> existsb (fun f => mtch (sf_name f)) fs = false.
Proof.
  induction fs as [|f r IH]; intros i; cbn; [easy|]. unfold matching at 1.
  destruct (mtch (sf_name f)); cbn; [easy|apply IH].
Qed.

Lemma emit_embedded_types s idx fs : forall i,
  In s (map fst (emit embedded idx i fs)) <-> In (Some s) (map sf_emb fs).
Proof.
  induction fs as [|f r IH]; intros i; cbn; [tauto|]. rewrite map_app, in_app_iff, IH.
  unfold embedded. destruct (sf_emb f); cbn; intuition congruence.
Qed.

Lemma matches_nil l :
  flat_map (emit_at matching) l = [] <-> forall t, In t (map fst l) -> has_match t = false.
Proof.
  rewrite flat_map_eq_nil. split.
  - intros H t Ht. apply in_map_iff in Ht as [p [<- Hp]]. apply (emit_matching_nil (snd p) _ 0), H, Hp.
  - intros H p Hp. apply emit_matching_nil, H, in_map, Hp.
Qed.

Lemma embedded_types l s :
  In s (map fst (flat_map (emit_at embedded) l)) <-> exists t, In t (map fst l) /\ embeds t s.
Proof.
  split.
  - intros H. apply in_map_iff in H as [q [<- H]]. apply in_flat_map in H as [p [Hp H]].
    exists (fst p). split; [now apply in_map|]. apply (emit_embedded_types _ (snd p) _ 0). now apply in_map.
  - intros [t [Ht H]]. apply in_map_iff in Ht as [p [<- Hp]].
    apply (emit_embedded_types _ (snd p) _ 0), in_map_iff in H as [q [<- H]].
    apply in_map, in_flat_map. now exists p.
Qed.

Lemma emit_same_type {B} (h : sfield -> list N -> list B) t l :
  (forall p, In p l -> fst p = t) ->
  flat_map (emit_at h) l = flat_map (fun idx => emit h idx 0 (sfields g t)) (map snd l).
Proof.
  induction l as [|p l IH]; intros H; cbn; [reflexivity|].
  rewrite IH by auto using in_cons. unfold emit_at. now rewrite (H p (or_introl eq_refl)).
Qed.

Definition sat2 (n : nat) : N := match n with O => 0 | S O => 1 | _ => 2 end.

(* inside a level: the queue and the counts built so far summarise the paths [qs] of the next
   level, the count of a type being exactly the number of its paths, saturated at 2 *)
Record summary (next : list (N * list N)) (ncnt : list (N * N)) (qs : list (N * list N)) : Prop := {
  summary_cnt : forall s, cnt_get ncnt s = sat2 (npaths qs s);
  summary_mem : forall s, In s (map fst next) <-> npaths qs s <> 0%nat;
  summary_one : forall s idx, In (s, idx) next -> npaths qs s = 1%nat -> In (s, idx) qs
}.

Lemma summary_perm next ncnt qs qs' : Permutation qs qs' -> summary next ncnt qs -> summary next ncnt qs'.
Proof.
  intros P [H1 H2 H3]. split; intros s.
  - now rewrite <- (npaths_perm _ _ s P).
  - now rewrite <- (npaths_perm _ _ s P).
  - intros idx Hin. rewrite <- (npaths_perm _ _ s P). eauto using Permutation_in.
Qed.

Lemma summary_add next ncnt qs s js j :
  summary next ncnt qs -> js <> [] -> (List.length js = 1%nat -> js = [j]) ->
  summary (if 0 <? cnt_get ncnt s then next else next ++ [(s, j)])
       (cnt_set ncnt s (if 0 <? cnt_get ncnt s then 2 else if (1 <? List.length js)%nat then 2 else 1))
       (qs ++ map (pair s) js).
Proof.
  intros [H1 H2 H3] Hne Hj.
  assert (Hl : List.length js <> 0%nat) by (now destruct js).
  assert (Hn : forall t, npaths (qs ++ map (pair s) js) t
                         = (npaths qs t + if (s =? t)%N then List.length js else 0)%nat)
    by (intros t; now rewrite npaths_app, npaths_same).
  assert (Hq : (0 <? cnt_get ncnt s) = negb (Nat.eqb (npaths qs s) 0)).
  { rewrite H1. now destruct (npaths qs s) as [|[|n]]. }
  split.
  - intros t. rewrite cnt_get_set, Hn, Hq, H1. destruct (N.eqb_spec s t) as [<-|Hs].
    + destruct (npaths qs s) as [|n]; cbn.
      * destruct (List.length js) as [|[|n]]; easy.
      * destruct n, (List.length js); easy.
    + now rewrite Nat.add_0_r.
  - intros t. rewrite Hn, Hq. destruct (Nat.eqb_spec (npaths qs s) 0) as [E|E]; cbn.
    + rewrite map_app, in_app_iff, H2. cbn. destruct (N.eqb_spec s t) as [<-|Hs]; [lia|].
      rewrite Nat.add_0_r. tauto.
    + rewrite H2. destruct (N.eqb_spec s t) as [<-|Hs]; lia.
  - intros t idx Hin Ht. rewrite Hn in Ht. apply in_or_app.
    destruct (N.eqb_spec s t) as [<-|Hs].
    + rewrite Hq in Hin. destruct (Nat.eqb_spec (npaths qs s) 0) as [E|E]; cbn in Hin; [|lia].
      apply in_app_or in Hin as [Hin|[Hin|[]]].
      * apply (in_map fst), H2 in Hin. easy.
      * right. rewrite (Hj ltac:(lia)). left. congruence.
    + left. apply H3; [|lia]. destruct (0 <? cnt_get ncnt s); [exact Hin|].
      apply in_app_or in Hin as [Hin|[Hin|[]]]; [exact Hin|congruence].
Qed.

(* the scan state [st] after the part of a level whose matches are [ms] and whose paths to the
   next level are [qs] *)
Definition scan_rel (st : fstate) (ms : list (list N)) (qs : list (N * list N)) : Prop :=
  if fs_amb st then (2 <= List.length ms)%nat
  else if fs_ok st then ms = [fs_res st]
  else ms = [] /\ summary (fs_next st) (fs_ncnt st) qs.

Lemma scan_rel_perm st ms ms' qs qs' : Permutation ms ms' -> Permutation qs qs' ->
  scan_rel st ms qs -> scan_rel st ms' qs'.
Proof.
  unfold scan_rel. intros Pm Pq. destruct (fs_amb st); [now rewrite (Permutation_length Pm)|].
  destruct (fs_ok st).
  - intros ->. now apply Permutation_length_1_inv.
  - intros [-> H]. split; [now apply Permutation_nil|exact (summary_perm _ _ _ _ Pq H)].
Qed.

Lemma scan_rel_amb st ms ms' qs qs' : fs_amb st = true -> scan_rel st ms qs -> scan_rel st (ms ++ ms') qs'.
Proof. unfold scan_rel. intros ->. rewrite app_length. lia. Qed.

Lemma scan_fields_sim ct idx ips :
  ips <> [] -> (1 <? ct) = (1 <? List.length ips)%nat -> (List.length ips = 1%nat -> ips = [idx]) ->
  forall fs i st ms qs, scan_rel st ms qs ->
  scan_rel (scan_fields true mtch ct idx i fs st)
      (ms ++ flat_map (fun p => emit matching p i fs) ips)
      (qs ++ flat_map (fun p => emit embedded p i fs) ips).
Proof.
  intros Hne Hct Hone.
  assert (Hl : List.length ips <> 0%nat) by (now destruct ips).
  induction fs as [|f r IH]; intros i st ms qs H.
  { cbn. now rewrite !flat_map_nil, !app_nil_r. }
  cbn [scan_fields]. destruct (fs_amb st) eqn:Ea; [exact (scan_rel_amb _ _ _ qs _ Ea H)|].
  (* the search scans f for all paths at once, the rule takes it up path by path *)
  assert (P : forall B (h : sfield -> list N -> list B) l,
    Permutation ((l ++ flat_map (fun p => h f (p ++ [i])) ips) ++ flat_map (fun p => emit h p (i + 1) r) ips)
                (l ++ flat_map (fun p => emit h p i (f :: r)) ips)).
  { intros B h l. cbn [emit]. now rewrite flat_map_app_perm, app_assoc. }
  apply (scan_rel_perm _ _ _ _ _ (P _ matching ms) (P _ embedded qs)), IH.
  unfold scan_rel in H. rewrite Ea in H. unfold matching, embedded.
  destruct (mtch (sf_name f)).
  - (* a match: the only one so far and reached by one path, or the search is over *)
    rewrite flat_map_single. unfold scan_rel.
    destruct (fs_ok st); [rewrite orb_true_r; cbn; subst ms; rewrite app_length, map_length; cbn; lia|].
    destruct H as [-> _]. rewrite orb_false_r, Hct. destruct (Nat.ltb_spec 1 (List.length ips)); cbn.
    + rewrite map_length. lia.
    + now rewrite (Hone ltac:(lia)).
  - rewrite flat_map_nil, app_nil_r. destruct (sf_emb f) as [s|].
    + rewrite flat_map_single, <- (map_map (fun p => p ++ [i]) (pair s)).
      unfold scan_rel. destruct (fs_ok st) eqn:Eo; [now rewrite Ea, Eo|].
      destruct H as [-> H]. rewrite Hct, <- (map_length (fun p => p ++ [i]) ips).
      apply (summary_add _ _ _ s (map (fun p => p ++ [i]) ips) (idx ++ [i])) in H.
      * destruct (0 <? cnt_get (fs_ncnt st) s); cbn; auto.
      * now destruct ips.
      * rewrite map_length. intros E. now rewrite (Hone E).
    + rewrite flat_map_nil, app_nil_r. unfold scan_rel. now rewrite Ea.
Qed.

(* the paths of [ps] that the scan of the queue [cur] takes up, in its order: a type is taken
   once, unless visited before *)
Fixpoint taken (ps cur : list (N * list N)) (V : list N) : list (N * list N) :=
  match cur with
  | [] => []
  | (t, _) :: r =>
      if mem_N t V then taken ps r V
      else filter (fun p => fst p =? t) ps ++ taken ps r (t :: V)
  end.

Lemma taken_perm ps : forall cur V,
  (forall t, In t (map fst ps) -> In t V \/ In t (map fst cur)) ->
  Permutation ps (filter (fun p => mem_N (fst p) V) ps ++ taken ps cur V).
Proof.
  induction cur as [|[t idx] r IH]; intros V H; cbn [taken].
  - rewrite app_nil_r, filter_all; [reflexivity|].
    intros p Hp. apply mem_N_In. now destruct (H _ (in_map fst _ _ Hp)).
  - destruct (mem_N t V) eqn:Et.
    + apply IH. intros t' Ht'. destruct (H t' Ht') as [|[<-|]]; auto. left. now apply mem_N_In.
    + rewrite app_assoc, <- (filter_split_perm (fun p => mem_N (fst p) (t :: V))).
      * apply IH. intros t' Ht'. destruct (H t' Ht') as [|[<-|]]; cbn; auto.
      * intros p _. cbn. rewrite orb_comm. split; [reflexivity|].
        destruct (N.eqb_spec (fst p) t) as [->|]; [now rewrite Et|apply andb_false_r].
Qed.

(* between levels: the queued (t, idx) stands for the paths of [ps] that end in t.  About the count
   this says less than [summary_cnt], only whether it exceeds 1: that is all scan_fields asks of it,
   and all that holds at the start, where the root has one path and the empty count table gives 0 *)
Definition stands_for (cnt : list (N * N)) (ps : list (N * list N)) (t : N) (idx : list N) : Prop :=
  npaths ps t <> 0%nat /\
  (1 <? cnt_get cnt t) = (1 <? npaths ps t)%nat /\
  (npaths ps t = 1%nat -> In (t, idx) ps).

Lemma scan_level_sim cnt ps : forall cur V st ms qs,
  (forall t idx, In (t, idx) cur -> ~ In t V -> stands_for cnt ps t idx) ->
  scan_rel st ms qs ->
  let r := scan_level true g mtch cnt cur V st in
  scan_rel (fst r) (ms ++ flat_map (emit_at matching) (taken ps cur V))
                   (qs ++ flat_map (emit_at embedded) (taken ps cur V)) /\
  (fs_amb (fst r) = false -> forall t, In t (snd r) <-> In t V \/ In t (map fst cur)).
Proof.
  induction cur as [|[t idx] r IH]; intros V st ms qs Hg H; cbn [scan_level taken].
  { cbn. rewrite !app_nil_r. tauto. }
  destruct (fs_amb st) eqn:Ea.
  { split; [exact (scan_rel_amb _ _ _ qs _ Ea H)|]. cbn. congruence. }
  destruct (mem_N t V) eqn:Et.
  - destruct (IH V st ms qs) as [R Hv]; [auto using in_cons|exact H|]. split; [exact R|].
    intros E t'. rewrite (Hv E). apply mem_N_In in Et. cbn. intuition congruence.
  - apply mem_N_not_In in Et. destruct (Hg t idx (or_introl eq_refl) Et) as [G0 [G1 G2]].
    set (l := filter (fun p => fst p =? t) ps) in *.
    assert (Hl : forall p, In p l -> fst p = t).
    { intros p Hp. apply filter_In in Hp. now apply N.eqb_eq. }
    rewrite !flat_map_app, !app_assoc, !(emit_same_type _ t l Hl).
    destruct (IH (t :: V) (scan_fields true mtch (cnt_get cnt t) idx 0 (sfields g t) st)
                 (ms ++ flat_map (fun p => emit matching p 0 (sfields g t)) (map snd l))
                 (qs ++ flat_map (fun p => emit embedded p 0 (sfields g t)) (map snd l))) as [R Hv].
    + intros t' idx' Hin Hn. apply Hg; [now right|]. intros Hv. apply Hn. now right.
    + unfold npaths in G0, G1, G2. fold l in G0, G1, G2.
      apply scan_fields_sim; rewrite ?map_length; trivial.
      * destruct l; [easy|discriminate].
      * intros E. specialize (G2 E).
        assert (Hin : In (t, idx) l) by (apply filter_In; split; [exact G2|apply N.eqb_refl]).
        destruct l as [|p [|]]; try discriminate. destruct Hin as [->|[]]. reflexivity.
    + split; [exact R|]. intros E t'. rewrite (Hv E). cbn. intuition.
Qed.

Record level_inv (V : list N) (cur : list (N * list N)) (cnt : list (N * N)) (ps : list (N * list N)) : Prop := {
  inv_dead : forall t, In t V ->
    has_match t = false /\ forall s, embeds t s -> In s V \/ In s (map fst cur);
  inv_cover : forall t, In t (map fst ps) -> In t V \/ In t (map fst cur);
  inv_group : forall t idx, In (t, idx) cur -> ~ In t V -> stands_for cnt ps t idx
}.

Definition scan_start : fstate := FState false [] [] [] false.

Lemma level_sim V cur cnt ps : level_inv V cur cnt ps ->
  let r := scan_level true g mtch cnt cur V scan_start in
  exists qs, scan_rel (fst r) (matches_of g mtch ps) qs /\
  (fs_amb (fst r) = false -> fs_ok (fst r) = false ->
   level_inv (snd r) (fs_next (fst r)) (fs_ncnt (fst r)) (step_paths g ps)).
Proof.
  intros [Hd Hc Hg] r.
  assert (R0 : scan_rel scan_start [] []) by (split; [reflexivity|split; cbn; easy]).
  destruct (scan_level_sim cnt ps cur V scan_start [] [] Hg R0) as [R Hv]. fold r in R, Hv. cbn [app] in R.
  set (dead := filter (fun p => mem_N (fst p) V) ps).
  assert (P : Permutation ps (dead ++ taken ps cur V)) by exact (taken_perm ps cur V Hc).
  assert (Hdead : forall t, In t (map fst dead) -> In t V).
  { intros t Ht. apply in_map_iff in Ht as [p [<- Hp]]. apply filter_In in Hp. now apply mem_N_In. }
  assert (Hm : flat_map (emit_at matching) dead = []).
  { apply matches_nil. intros t Ht. apply Hd, Hdead, Ht. }
  set (qs := flat_map (emit_at embedded) (taken ps cur V)) in *. exists qs. split.
  { refine (scan_rel_perm _ _ _ _ _ _ (Permutation_refl _) R). rewrite matches_of_emit.
    assert (Pm := Permutation_flat_map (emit_at matching) P).
    rewrite flat_map_app, Hm in Pm. symmetry. exact Pm. }
  intros Ea Eo. specialize (Hv Ea). unfold scan_rel in R. rewrite Ea, Eo in R. destruct R as [Em [S1 S2 S3]].
  assert (Pq : Permutation (step_paths g ps) (flat_map (emit_at embedded) dead ++ qs))
    by (unfold qs; rewrite step_paths_emit, <- flat_map_app; exact (Permutation_flat_map _ P)).
  (* a type scanned at this level ends a path taken up: no field matched, and what it embeds is
     in the new queue *)
  assert (A : forall t, In t (snd r) ->
    has_match t = false /\
    forall s, embeds t s -> In s (snd r) \/ In s (map fst (fs_next (fst r)))).
  { intros t Ht. destruct (mem_N t V) eqn:Et.
    { apply mem_N_In in Et. destruct (Hd t Et) as [H1 H2]. split; [exact H1|].
      intros s Hs. left. apply Hv. auto. }
    apply mem_N_not_In in Et. apply Hv in Ht as [Ht|Ht]; [easy|].
    assert (Hp : In t (map fst (taken ps cur V))).
    { apply in_map_iff in Ht as [[t' idx] [E Ht]]. cbn in E. subst t'.
      destruct (Hg t idx Ht Et) as [G _]. apply npaths_pos in G.
      apply (Permutation_in _ (Permutation_map fst P)) in G. rewrite map_app in G.
      apply in_app_or in G as [G|G]; [now apply Hdead in G|exact G]. }
    split.
    - exact (proj1 (matches_nil _) Em t Hp).
    - intros s Hs. right. apply S2, npaths_pos, embedded_types. now exists t. }
  split.
  - exact A.
  - intros s Hs. rewrite step_paths_emit in Hs. apply embedded_types in Hs as [t [Ht Hs]].
    exact (proj2 (A t (proj2 (Hv t) (Hc t Ht))) s Hs).
  - intros t idx Hin Ht.
    assert (E : npaths (step_paths g ps) t = npaths qs t).
    { rewrite (npaths_perm _ _ t Pq), npaths_app.
      destruct (Nat.eq_dec (npaths (flat_map (emit_at embedded) dead) t) 0) as [->|E]; [reflexivity|].
      apply npaths_pos, embedded_types in E as [t' [Ht' Hs]].
      destruct Ht. apply Hv. exact (proj2 (Hd t' (Hdead t' Ht')) t Hs). }
    unfold stands_for. rewrite E, S1. split; [|split].
    + apply S2. exact (in_map fst _ _ Hin).
    + now destruct (npaths qs t) as [|[|n]].
    + intros E1. apply (Permutation_in _ (Permutation_sym Pq)), in_or_app. right. auto.
Qed.

Lemma levels_eq : forall fuel V cur cnt ps, level_inv V cur cnt ps ->
  fbn_levels true fuel g mtch cur cnt V = spec_levels fuel g mtch ps.
Proof.
  induction fuel as [|fuel IH]; intros V cur cnt ps H; [reflexivity|].
  destruct (level_sim V cur cnt ps H) as [qs [R I]]. cbn [fbn_levels spec_levels].
  destruct cur as [|c cur].
  - (* an empty queue stays empty: the rule finds nothing either *)
    destruct R as [-> _]. rewrite <- (IH _ _ _ _ (I eq_refl eq_refl)). now destruct fuel.
  - destruct (scan_level _ _ _ _ _ _ _) as [st V']. cbn [fst snd] in R, I. unfold scan_rel in R.
    destruct (fs_amb st).
    { destruct (matches_of g mtch ps) as [|m [|m' ms]]; cbn in R; [lia|lia|reflexivity]. }
    destruct (fs_ok st); [now rewrite R|].
    destruct R as [-> _]. now apply IH, I.
Qed.

End Search.

(* llgo's FieldByNameFunc is Go's: the field at the shallowest depth, found iff exactly one path
   of embedded fields reaches a matching field at that depth *)
Theorem field_by_name_func_eq_go g root mtch :
  field_by_name_func true g root mtch = go_field_by_name_func g root mtch.
Proof.
  apply levels_eq. split; cbn.
  - easy.
  - intros p [<-|[]]. auto.
  - intros t idx [E|[]] _. inversion E; subst. unfold stands_for, npaths. cbn.
    rewrite N.eqb_refl. cbn. auto.
Qed.

Corollary field_by_name_eq_go g root name :
  field_by_name true g root name = go_field_by_name_func g root (N.eqb name).
Proof. apply field_by_name_func_eq_go. Qed.
