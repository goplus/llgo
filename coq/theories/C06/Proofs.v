(* C06 - proofs.  Part 1: the layer-1 bucket model (Simple.v) refines the
   association-list specification for every history, for any hash function and any
   partial equivalence used as key equality (NaN-like keys allowed).
   Part 2: facts about the heap-level model (Model.v). *)
From LLGoV Require Import C06.Model C06.Simple C06.SimpleRun.
From Coq Require Import Lia.
Local Open Scope N_scope.

Lemma fold_left_rel {S T O} (R : S -> T -> Prop) (f : S -> O -> S) (g : T -> O -> T) :
  (forall s t o, R s t -> R (f s o) (g t o)) ->
  forall os s t, R s t -> R (fold_left f os s) (fold_left g os t).
Proof. intros H os. induction os as [|o os IH]; simpl; auto. Qed.

Section SimpleProofs.
Variables (K V : Type) (eqb : K -> K -> bool) (hash : K -> N) (upd : bool) (B : N).
Hypothesis eqb_sym : forall a b, eqb a b = eqb b a.
Hypothesis eqb_trans : forall a b c, eqb a b = true -> eqb b c = true -> eqb a c = true.
Hypothesis hash_eqb : forall a b, eqb a b = true -> hash a = hash b.

Notation cell := (cell K V).
Notation top := (top K hash).
Notation cmatch := (cmatch K V eqb hash).
Notation cfind := (cfind K V eqb hash).
Notation cupd := (cupd K V eqb hash upd).
Notation cput := (cput K V hash).
Notation cdel := (cdel K V eqb hash).
Notation live := (live K V).
Notation idx := (idx K hash B).
Notation slookup := (slookup K V eqb hash B).
Notation sset := (sset K V eqb hash upd B).
Notation sdel := (sdel K V eqb hash B).
Notation afind := (afind K V eqb).
Notation aset := (aset K V eqb).
Notation adel := (adel K V eqb).

Lemma eqb_congr_l a b c : eqb a b = true -> eqb a c = eqb b c.
Proof.
  intros H. destruct (eqb a c) eqn:E1, (eqb b c) eqn:E2; auto.
  - rewrite eqb_sym in H. rewrite (eqb_trans _ _ _ H E1) in E2. discriminate.
  - rewrite (eqb_trans _ _ _ H E2) in E1. discriminate.
Qed.
Lemma eqb_congr_r a b c : eqb a b = true -> eqb c a = eqb c b.
Proof. intros H. rewrite (eqb_sym c a), (eqb_sym c b). now apply eqb_congr_l. Qed.
Lemma top_eqb a b : eqb a b = true -> top a = top b.
Proof. intros H. unfold Simple.top. now rewrite (hash_eqb _ _ H). Qed.
Lemma idx_eqb a b : eqb a b = true -> idx a = idx b.
Proof. intros H. unfold Simple.idx. now rewrite (hash_eqb _ _ H). Qed.

Definition cok (i : nat) (x : cell) : Prop :=
  match x with Full t k _ => t = top k /\ idx k = i | Empty => True end.
Definition ceqb (k : K) (x : cell) : bool :=
  match x with Full _ k' _ => eqb k k' | Empty => false end.
Definition cne (x y : cell) : Prop :=
  match x, y with Full _ a _, Full _ b _ => eqb a b = false | _, _ => True end.
Fixpoint cuniq (c : list cell) : Prop :=
  match c with [] => True | x :: c' => (forall y, In y c' -> cne x y) /\ cuniq c' end.

Lemma cmatch_ok i k x : cok i x -> cmatch k x = ceqb k x.
Proof.
  destruct x as [|t k' v]; simpl; auto. intros [Ht _]. subst t.
  destruct (eqb k k') eqn:E; [|apply andb_false_r].
  rewrite (top_eqb _ _ E). now rewrite N.eqb_refl.
Qed.

Lemma ceqb_congr k k' x : eqb k' k = true -> ceqb k' x = ceqb k x.
Proof. destruct x; simpl; auto. apply eqb_congr_l. Qed.

Lemma cfind_congr i k k' c : Forall (cok i) c -> eqb k' k = true -> cfind k' c = cfind k c.
Proof.
  intros F E. induction F as [|x c Hx F IH]; simpl; auto.
  rewrite !(cmatch_ok i) by auto. rewrite (ceqb_congr k k' x E). now rewrite IH.
Qed.

Lemma cfind_none i k c : Forall (cok i) c ->
  cfind k c = None <-> Forall (fun x => ceqb k x = false) c.
Proof.
  intros F. induction F as [|x c Hx F IH]; simpl; [split; auto|].
  rewrite (cmatch_ok i) by auto. rewrite Forall_cons_iff, <- IH.
  destruct x as [|t kx vx]; simpl; [tauto|].
  destruct (eqb k kx); [split; [discriminate|intros [? _]; discriminate]|tauto].
Qed.

Lemma cfind_cupd i k v k' c : Forall (cok i) c ->
  cfind k' (cupd k v c) = match cfind k c with
                          | Some _ => if eqb k' k then Some v else cfind k' c
                          | None => cfind k' c end.
Proof.
  intros F. induction F as [|x c Hx F IH]; simpl; auto.
  rewrite (cmatch_ok i k x Hx). destruct (ceqb k x) eqn:Ek.
  - destruct x as [|t kx vx]; simpl in *; [discriminate|]. destruct Hx as [-> Hi].
    assert (E1 : eqb k' kx = eqb k' k) by (symmetry; apply eqb_congr_r; exact Ek).
    assert (E2 : eqb k' (if upd then k else kx) = eqb k' k) by (destruct upd; auto).
    rewrite E1, E2. destruct (eqb k' k) eqn:E.
    + rewrite <- (top_eqb _ _ Ek), (top_eqb _ _ E), N.eqb_refl. reflexivity.
    + now rewrite !andb_false_r.
  - simpl. rewrite (cmatch_ok i k' x Hx). rewrite IH.
    destruct (ceqb k' x) eqn:Ek'; auto.
    destruct (cfind k c); auto. destruct (eqb k' k) eqn:E; auto.
    rewrite (ceqb_congr k k' x E) in Ek'. congruence.
Qed.

Lemma cok_cupd i k v c : idx k = i -> Forall (cok i) c -> Forall (cok i) (cupd k v c).
Proof.
  intros Hi F. induction F as [|x c Hx F IH]; simpl; auto.
  rewrite (cmatch_ok i k x Hx). destruct (ceqb k x) eqn:Ek; constructor; auto.
  destruct x as [|t kx vx]; simpl in *; auto. destruct Hx as [-> Hx]. destruct upd; auto.
  split; auto. symmetry. now apply top_eqb.
Qed.

Lemma cfind_cput i k v k' c : Forall (cok i) c -> cfind k c = None ->
  cfind k' (cput k v c) = if eqb k' k then Some v else cfind k' c.
Proof.
  assert (M : cmatch k' (Full (top k) k v) = eqb k' k) by (apply (cmatch_ok (idx k)); simpl; auto).
  simpl in M.
  intros F. induction F as [|x c Hx F IH]; simpl; intros Hn.
  - now rewrite M.
  - rewrite (cmatch_ok i k x Hx) in Hn.
    destruct x as [|t kx vx]; simpl in *.
    + now rewrite M.
    + destruct (eqb k kx) eqn:Ek; [discriminate|]. destruct Hx as [-> Hi].
      rewrite (IH Hn). destruct (eqb k' kx) eqn:Ek'; simpl.
      * replace (eqb k' k) with false; auto.
        symmetry. rewrite (eqb_congr_l _ _ k Ek'). rewrite eqb_sym. exact Ek.
      * now rewrite andb_false_r.
Qed.

Lemma cok_repeat i n : Forall (cok i) (repeat (@Empty K V) n).
Proof. induction n; simpl; constructor; simpl; auto. Qed.

Lemma cok_cput i k v c : idx k = i -> Forall (cok i) c -> Forall (cok i) (cput k v c).
Proof.
  intros Hi F. induction F as [|x c Hx F IH]; simpl.
  - constructor; [simpl; auto|apply (cok_repeat i 7)].
  - destruct x; constructor; simpl; auto.
Qed.

Lemma eqb_refl_of a b : eqb a b = true -> eqb a a = true /\ eqb b b = true.
Proof.
  intros H. split.
  - apply (eqb_trans a b a); auto. now rewrite eqb_sym.
  - apply (eqb_trans b a b); auto. now rewrite eqb_sym.
Qed.

Lemma cne_congr_r x t1 k1 v1 t2 k2 v2 :
  eqb k1 k2 = true -> cne x (Full t1 k1 v1) -> cne x (Full t2 k2 v2).
Proof. destruct x; simpl; auto. intros E H. now rewrite <- (eqb_congr_r _ _ k E). Qed.
Lemma cne_congr_l y t1 k1 v1 t2 k2 v2 :
  eqb k1 k2 = true -> cne (Full t1 k1 v1) y -> cne (Full t2 k2 v2) y.
Proof. destruct y; simpl; auto. intros E H. now rewrite <- (eqb_congr_l _ _ k E). Qed.

Lemma In_cupd i k v x c y : Forall (cok i) c -> (forall y0, In y0 c -> cne x y0) ->
  In y (cupd k v c) -> cne x y.
Proof.
  intros F. induction F as [|z c Hz F IH]; simpl; [tauto|]. intros H1.
  rewrite (cmatch_ok i k z Hz). destruct (ceqb k z) eqn:Ez; simpl.
  - intros [<-|Hy]; [|apply H1; auto].
    destruct z as [|t kz vz]; simpl in *; [discriminate|].
    apply (cne_congr_r x t kz vz); [|apply H1; auto].
    destruct upd; [now rewrite eqb_sym|]. now destruct (eqb_refl_of _ _ Ez).
  - intros [<-|Hy]; [apply H1; auto|]. apply IH; auto.
Qed.

Lemma cuniq_cupd i k v c : Forall (cok i) c -> cuniq c -> cuniq (cupd k v c).
Proof.
  intros F. induction F as [|x c Hx F IH]; simpl; auto. intros [H1 H2].
  rewrite (cmatch_ok i k x Hx). destruct (ceqb k x) eqn:Ek; simpl.
  - split; auto. intros y Hy. specialize (H1 y Hy).
    destruct x as [|t kx vx]; simpl in Ek; [discriminate|].
    apply (cne_congr_l y t kx vx); auto.
    destruct upd; [now rewrite eqb_sym|]. now destruct (eqb_refl_of _ _ Ek).
  - split; auto. intros y Hy. apply (In_cupd i k v x c y); auto.
Qed.

Lemma In_cput k v c y : In y (cput k v c) -> y = Full (top k) k v \/ y = Empty \/ In y c.
Proof.
  induction c as [|z c IH]; cbn [Simple.cput In].
  - intros [<-|Hy]; auto. apply repeat_spec in Hy. auto.
  - destruct z; cbn [In]; intros [<-|Hy]; auto. destruct (IH Hy) as [?|[?|?]]; auto.
Qed.

Lemma cuniq_repeat n : cuniq (repeat (@Empty K V) n).
Proof. induction n; simpl; auto. Qed.

Lemma cuniq_cput i k v c : Forall (cok i) c -> cfind k c = None -> cuniq c -> cuniq (cput k v c).
Proof.
  intros F. induction F as [|x c Hx F IH]; cbn [Simple.cput Simple.cfind cuniq]; intros Hn Hu.
  - split; auto.
    + intros y Hy. apply repeat_spec in Hy. subst. simpl. auto.
    + apply cuniq_repeat.
  - destruct Hu as [H1 H2]. rewrite (cmatch_ok i k x Hx) in Hn.
    destruct x as [|t kx vx]; simpl in *.
    + split; auto. intros y Hy. destruct y as [|ty ky vy]; auto.
      apply (cfind_none i k c F) in Hn. rewrite Forall_forall in Hn. apply (Hn _ Hy).
    + destruct (eqb k kx) eqn:Ek; [discriminate|]. split; auto.
      intros y Hy. destruct (In_cput _ _ _ _ Hy) as [->|[->|Hy']]; auto.
      * rewrite eqb_sym. exact Ek.
      * apply H1; auto.
Qed.

Lemma In_cdel k c y : In y (cdel k c) -> y = Empty \/ In y c.
Proof.
  induction c as [|z c IH]; simpl; [tauto|].
  destruct (cmatch k z); simpl; intros [<-|Hy]; auto. destruct (IH Hy); auto.
Qed.

Lemma cuniq_cdel k c : cuniq c -> cuniq (cdel k c).
Proof.
  induction c as [|x c IH]; simpl; auto. intros [H1 H2].
  destruct (cmatch k x); simpl; split; auto.
  intros y Hy. destruct (In_cdel _ _ _ Hy) as [->|Hy']; auto. destruct x; simpl; auto.
Qed.

Lemma cok_cdel i k c : Forall (cok i) c -> Forall (cok i) (cdel k c).
Proof.
  intros F. induction F as [|x c Hx F IH]; simpl; auto.
  destruct (cmatch k x); constructor; simpl; auto.
Qed.

Lemma cfind_cdel i k k' c : Forall (cok i) c -> cuniq c ->
  cfind k' (cdel k c) = if eqb k' k then None else cfind k' c.
Proof.
  intros F. induction F as [|x c Hx F IH]; simpl; intros Hu.
  - now destruct (eqb k' k).
  - destruct Hu as [H1 H2]. rewrite (cmatch_ok i k x Hx), (cmatch_ok i k' x Hx).
    destruct (ceqb k x) eqn:Ek; simpl.
    + destruct x as [|t kx vx]; simpl in *; [discriminate|].
      assert (E1 : eqb k' kx = eqb k' k) by (symmetry; apply eqb_congr_r; exact Ek).
      rewrite E1. destruct (eqb k' k) eqn:E; auto.
      apply (cfind_none i); auto. apply Forall_forall. intros y Hy.
      rewrite (ceqb_congr kx k' y) by congruence. specialize (H1 y Hy). now destruct y.
    + rewrite (cmatch_ok i k' x Hx), (IH H2).
      destruct (ceqb k' x) eqn:Ek'; auto.
      destruct (eqb k' k) eqn:E; auto.
      rewrite (ceqb_congr k k' x E) in Ek'. congruence.
Qed.

Lemma upd_nth_length {A} i (f : A -> A) l : length (upd_nth i f l) = length l.
Proof. revert i; induction l; destruct i; simpl; auto. Qed.
Lemma nth_upd_same {A} i (f : A -> A) l d : (i < length l)%nat -> nth i (upd_nth i f l) d = f (nth i l d).
Proof. revert i; induction l; destruct i; simpl; intros; auto; try lia. apply IHl. lia. Qed.
Lemma nth_upd_other {A} i j (f : A -> A) l d : i <> j -> nth j (upd_nth i f l) d = nth j l d.
Proof. revert i j; induction l; destruct i, j; simpl; intros; auto; try congruence. Qed.

(* the invariant of one chain, Forall (cok i) c /\ cuniq c, is written out here and in rebinds;
   GrowProofs.chain_ok is its name in the layer with growth *)
Definition TI (t : list (list cell)) : Prop :=
  length t = N.to_nat (2 ^ B) /\
  forall i, (i < length t)%nat -> Forall (cok i) (nth i t []) /\ cuniq (nth i t []).

Lemma idx_bound k : (idx k < N.to_nat (2 ^ B))%nat.
Proof.
  unfold Simple.idx.
  assert (hash k mod 2 ^ B < 2 ^ B) by (apply N.mod_lt; apply N.pow_nonzero; discriminate). lia.
Qed.

Lemma idx_lt t k : TI t -> (idx k < length t)%nat.
Proof. intros [L _]. rewrite L. apply idx_bound. Qed.

Lemma TI_upd t k f : TI t ->
  (Forall (cok (idx k)) (f (nth (idx k) t [])) /\ cuniq (f (nth (idx k) t []))) ->
  TI (upd_nth (idx k) f t).
Proof.
  intros [L H] Hf. split; [now rewrite upd_nth_length|].
  intros i Hi. rewrite upd_nth_length in Hi.
  destruct (Nat.eq_dec (idx k) i) as [<-|Hne].
  - rewrite nth_upd_same by auto. auto.
  - rewrite nth_upd_other by auto. auto.
Qed.

Lemma nth_repeat_nil {A} i n : nth i (repeat (@nil A) n) [] = [].
Proof. revert i; induction n; destruct i; simpl; auto. Qed.

Lemma TI_empty : TI (tbl K V (empty_map K V B)).
Proof.
  simpl. split; [apply repeat_length|]. intros i _.
  rewrite nth_repeat_nil. simpl; auto.
Qed.

Lemma TI_chain t k : TI t -> Forall (cok (idx k)) (nth (idx k) t []) /\ cuniq (nth (idx k) t []).
Proof. intros HT. apply HT. now apply idx_lt. Qed.

(* what mapassign and mapdelete do to the chain they select, here and in Grow.v: c' is a
   well-formed chain of bucket i that binds k to r (None: not bound) and every other key as c does *)
Definition rebinds (i : nat) (k : K) (r : option V) (c c' : list cell) : Prop :=
  (Forall (cok i) c' /\ cuniq c') /\
  forall k', cfind k' c' = if eqb k' k then r else cfind k' c.

Lemma cupd_rebinds i k v w c : idx k = i -> Forall (cok i) c -> cuniq c -> cfind k c = Some w ->
  rebinds i k (Some v) c (cupd k v c).
Proof.
  intros Hi F U Hf. split; [split; [now apply cok_cupd|now apply (cuniq_cupd i)]|].
  intros k'. now rewrite (cfind_cupd i), Hf.
Qed.

Lemma cput_rebinds i k v c : idx k = i -> Forall (cok i) c -> cuniq c -> cfind k c = None ->
  rebinds i k (Some v) c (cput k v c).
Proof.
  intros Hi F U Hf. split; [split; [now apply cok_cput|now apply (cuniq_cput i)]|].
  intros k'. now apply (cfind_cput i).
Qed.

Lemma cdel_rebinds i k c : Forall (cok i) c -> cuniq c -> rebinds i k None c (cdel k c).
Proof.
  intros F U. split; [split; [now apply cok_cdel|now apply cuniq_cdel]|].
  intros k'. now apply (cfind_cdel i).
Qed.

Lemma TI_rebinds t k r f : TI t ->
  rebinds (idx k) k r (nth (idx k) t []) (f (nth (idx k) t [])) ->
  TI (upd_nth (idx k) f t) /\
  forall k', cfind k' (nth (idx k') (upd_nth (idx k) f t) []) =
             if eqb k' k then r else cfind k' (nth (idx k') t []).
Proof.
  intros HT [Hc Hf]. split; [now apply TI_upd|]. intros k'.
  destruct (Nat.eq_dec (idx k) (idx k')) as [E|NE].
  - rewrite <- E, nth_upd_same by now apply idx_lt. apply Hf.
  - rewrite nth_upd_other by auto. destruct (eqb k' k) eqn:Ee; auto.
    apply idx_eqb in Ee. congruence.
Qed.

Lemma slookup_congr m k k' : TI (tbl K V m) -> eqb k' k = true -> slookup m k' = slookup m k.
Proof.
  intros HT E. unfold Simple.slookup. rewrite (idx_eqb _ _ E).
  apply (cfind_congr (idx k)); auto. apply TI_chain; auto.
Qed.

Lemma sset_ok m k v : TI (tbl K V m) ->
  TI (tbl K V (sset m k v)) /\
  (forall k', slookup (sset m k v) k' = if eqb k' k then Some v else slookup m k') /\
  cnt K V (sset m k v) = cnt K V m + match slookup m k with Some _ => 0 | None => 1 end.
Proof.
  intros HT. destruct (TI_chain _ k HT) as [F U]. unfold Simple.sset.
  destruct (slookup m k) eqn:Hs.
  - destruct (TI_rebinds _ k (Some v) (cupd k v) HT) as [A L]; [now apply (cupd_rebinds _ _ _ v0)|].
    split; [exact A|]. split; [exact L|simpl; lia].
  - destruct (TI_rebinds _ k (Some v) (cput k v) HT) as [A L]; [now apply cput_rebinds|].
    split; [exact A|]. split; [exact L|reflexivity].
Qed.

Lemma sdel_ok m k : TI (tbl K V m) ->
  TI (tbl K V (sdel m k)) /\
  (forall k', slookup (sdel m k) k' = if eqb k' k then None else slookup m k') /\
  cnt K V (sdel m k) = cnt K V m - match slookup m k with Some _ => 1 | None => 0 end.
Proof.
  intros HT. destruct (TI_chain _ k HT) as [F U]. unfold Simple.sdel.
  destruct (slookup m k) eqn:Hs.
  - destruct (TI_rebinds _ k None (cdel k) HT) as [A L]; [now apply cdel_rebinds|].
    split; [exact A|]. split; [exact L|reflexivity].
  - split; [exact HT|]. split; [|simpl; lia].
    intros k'. destruct (eqb k' k) eqn:E; auto. now rewrite (slookup_congr m k k').
Qed.

Fixpoint kuniq (ks : list K) : Prop :=
  match ks with [] => True | a :: r => (forall b, In b r -> eqb a b = false) /\ kuniq r end.

Lemma afind_congr k k' l : eqb k' k = true -> afind k' l = afind k l.
Proof.
  intros E. unfold Simple.afind. induction l as [|kv l IH]; simpl; auto.
  rewrite (eqb_congr_l _ _ (fst kv) E). destruct (eqb k (fst kv)); auto.
Qed.

Lemma afind_app k l1 l2 : afind k (l1 ++ l2) = match afind k l1 with Some v => Some v | None => afind k l2 end.
Proof.
  unfold Simple.afind. induction l1 as [|kv l IH]; simpl; auto. destruct (eqb k (fst kv)); auto.
Qed.

Lemma afind_map k v k' l :
  afind k' (map (fun kv : K * V => if eqb k (fst kv) then (fst kv, v) else kv) l) =
  match afind k' l with Some w => Some (if eqb k' k then v else w) | None => None end.
Proof.
  unfold Simple.afind. induction l as [|kv l IH]; simpl; auto.
  destruct (eqb k (fst kv)) eqn:Ek; simpl; destruct (eqb k' (fst kv)) eqn:Ek'; auto;
    now rewrite (eqb_congr_l _ _ k Ek'), eqb_sym, Ek.
Qed.

Lemma afind_aset k v k' l : afind k' (aset k v l) = if eqb k' k then Some v else afind k' l.
Proof.
  unfold Simple.aset. destruct (afind k l) eqn:Hf.
  - rewrite afind_map. destruct (eqb k' k) eqn:E.
    + now rewrite (afind_congr k k' l E), Hf.
    + now destruct (afind k' l).
  - rewrite afind_app. destruct (eqb k' k) eqn:E.
    + rewrite (afind_congr k k' l E), Hf. unfold Simple.afind; simpl. now rewrite E.
    + unfold Simple.afind at 2; simpl. rewrite E. now destruct (afind k' l).
Qed.

Lemma afind_adel k k' l : afind k' (adel k l) = if eqb k' k then None else afind k' l.
Proof.
  unfold Simple.afind, Simple.adel. induction l as [|kv l IH]; simpl.
  - now destruct (eqb k' k).
  - destruct (eqb k (fst kv)) eqn:Ek; simpl.
    + rewrite IH. rewrite <- (eqb_congr_r _ _ k' Ek). now destruct (eqb k' k).
    + destruct (eqb k' (fst kv)) eqn:Ek'; [|exact IH].
      replace (eqb k' k) with false; auto. symmetry.
      rewrite (eqb_congr_l _ _ k Ek'). rewrite eqb_sym. exact Ek.
Qed.

Lemma afind_none k l : afind k l = None -> forall kv, In kv l -> eqb k (fst kv) = false.
Proof.
  unfold Simple.afind. induction l as [|a l IH]; simpl; [tauto|].
  destruct (eqb k (fst a)) eqn:E; [discriminate|]. intros H kv [<-|Hin]; auto.
Qed.

Lemma length_aset k v l : length (aset k v l) = (length l + match afind k l with Some _ => 0 | None => 1 end)%nat.
Proof. unfold Simple.aset. destruct (afind k l); [rewrite map_length|rewrite app_length; simpl]; lia. Qed.

Lemma keys_aset_upd k v l : map fst (map (fun kv : K * V => if eqb k (fst kv) then (fst kv, v) else kv) l) = map fst l.
Proof. induction l as [|kv l IH]; simpl; auto. rewrite IH. now destruct (eqb k (fst kv)). Qed.

Lemma kuniq_app ks a : kuniq ks -> (forall b, In b ks -> eqb b a = false) -> kuniq (ks ++ [a]).
Proof.
  induction ks as [|x ks IH]; simpl; [tauto|]. intros [H1 H2] H. split.
  - intros b Hb. apply in_app_or in Hb. destruct Hb as [Hb|[<-|[]]]; auto.
  - apply IH; auto.
Qed.

Lemma kuniq_aset k v l : kuniq (map fst l) -> kuniq (map fst (aset k v l)).
Proof.
  intros H. unfold Simple.aset. destruct (afind k l) eqn:Hf.
  - now rewrite keys_aset_upd.
  - rewrite map_app. simpl. apply kuniq_app; auto.
    intros b Hb. apply in_map_iff in Hb. destruct Hb as (kv & <- & Hin).
    rewrite eqb_sym. apply (afind_none k l Hf kv Hin).
Qed.

Lemma kuniq_adel k l : kuniq (map fst l) -> kuniq (map fst (adel k l)).
Proof.
  unfold Simple.adel. induction l as [|kv l IH]; simpl; auto. intros [H1 H2].
  destruct (eqb k (fst kv)); simpl; auto. split; auto.
  intros b Hb. apply H1. apply in_map_iff in Hb. destruct Hb as (x & <- & Hx).
  apply filter_In in Hx. apply in_map. tauto.
Qed.

Lemma length_adel k l : kuniq (map fst l) ->
  length (adel k l) = (length l - match afind k l with Some _ => 1 | None => 0 end)%nat.
Proof.
  unfold Simple.adel, Simple.afind. induction l as [|kv l IH]; simpl; auto. intros [H1 H2].
  destruct (eqb k (fst kv)) eqn:Ek; simpl.
  - (* no later entry matches k *)
    replace (filter (fun kv0 : K * V => negb (eqb k (fst kv0))) l) with l; [lia|].
    symmetry. apply filter_all. intros x Hx.
    specialize (H1 (fst x) (in_map fst _ _ Hx)).
    rewrite (eqb_congr_l _ _ (fst x) Ek). now rewrite H1.
  - rewrite (IH H2). destruct (find (fun kv0 : K * V => eqb k (fst kv0)) l) eqn:Hf; [|lia].
    destruct l; simpl in *; [discriminate|lia].
Qed.

Definition repr (f : K -> option V) (n : N) (l : list (K * V)) : Prop :=
  (forall k, f k = afind k l) /\ n = N.of_nat (length l) /\ kuniq (map fst l).

Lemma repr_zero f n l : repr f n l -> n = 0 -> l = [].
Proof. intros (_ & HC & _) ->. destruct l; [reflexivity|simpl in HC; lia]. Qed.

Lemma repr_set f n l k v f' : repr f n l ->
  (forall k', f' k' = if eqb k' k then Some v else f k') ->
  repr f' (n + match f k with Some _ => 0 | None => 1 end) (aset k v l).
Proof.
  intros (HL & HC & HU) Hf. split; [|split].
  - intros k'. now rewrite Hf, afind_aset, HL.
  - rewrite length_aset, HL, HC. destruct (afind k l); lia.
  - now apply kuniq_aset.
Qed.

Lemma repr_del f n l k f' : repr f n l ->
  (forall k', f' k' = if eqb k' k then None else f k') ->
  repr f' (n - match f k with Some _ => 1 | None => 0 end) (adel k l).
Proof.
  intros (HL & HC & HU) Hf. split; [|split].
  - intros k'. now rewrite Hf, afind_adel, HL.
  - rewrite length_adel, HL, HC by auto. destruct (afind k l) eqn:E; [|lia].
    assert (length l <> 0)%nat; [|lia]. destruct l; [discriminate|simpl; lia].
  - now apply kuniq_adel.
Qed.

Definition R (m : smap K V) (l : list (K * V)) : Prop :=
  TI (tbl K V m) /\ (forall k, slookup m k = afind k l) /\
  cnt K V m = N.of_nat (length l) /\ kuniq (map fst l).

Lemma R_repr m l : R m l <-> TI (tbl K V m) /\ repr (slookup m) (cnt K V m) l.
Proof. reflexivity. Qed.

Lemma R_empty : R (empty_map K V B) [].
Proof.
  split; [apply TI_empty|]. split; [|split; simpl; auto].
  intros k. unfold Simple.slookup. simpl. now rewrite nth_repeat_nil.
Qed.

Lemma R_step m l o : R m l ->
  R (fst (sstep K V eqb hash upd B m o)) (fst (astep K V eqb l o)) /\
  snd (sstep K V eqb hash upd B m o) = snd (astep K V eqb l o).
Proof.
  intros HR. assert (HR' := HR). apply R_repr in HR as [HT HA].
  destruct o as [k v|k|k| |]; simpl; (split; [|try reflexivity]).
  - destruct (sset_ok m k v HT) as (A & L & C). apply R_repr. split; [exact A|].
    rewrite C. exact (repr_set _ _ _ k v _ HA L).
  - exact HR'.
  - f_equal. apply HA.
  - destruct (sdel_ok m k HT) as (A & L & C). apply R_repr. split; [exact A|].
    rewrite C. exact (repr_del _ _ _ k _ HA L).
  - apply R_empty.
  - exact HR'.
  - f_equal. apply HA.
Qed.

Theorem srun_refines : forall ops m l, R m l ->
  srun K V eqb hash upd B m ops = arun K V eqb l ops.
Proof.
  induction ops as [|o ops IH]; simpl; auto. intros m l HR.
  destruct (R_step m l o HR) as [HR' Hres].
  destruct (sstep K V eqb hash upd B m o) as [m1 r1], (astep K V eqb l o) as [l1 r2]; simpl in *.
  subst. f_equal. now apply IH.
Qed.

Definition sfinal (ops : list (sop K V)) : smap K V :=
  fold_left (fun m o => fst (sstep K V eqb hash upd B m o)) ops (empty_map K V B).
Definition afinal (ops : list (sop K V)) : list (K * V) :=
  fold_left (fun l o => fst (astep K V eqb l o)) ops [].

Lemma R_final ops : R (sfinal ops) (afinal ops).
Proof.
  unfold sfinal, afinal. apply (fold_left_rel R); [|apply R_empty].
  intros m l o HR. now apply R_step.
Qed.

Lemma nan_not_found m k : TI (tbl K V m) -> eqb k k = false -> slookup m k = None.
Proof.
  intros HT Hn. destruct (TI_chain _ k HT) as [F _]. unfold Simple.slookup.
  apply (cfind_none (idx k)); auto. apply Forall_forall. intros y _. destruct y as [|t ky vy]; simpl; auto.
  destruct (eqb k ky) eqn:E; auto. destruct (eqb_refl_of _ _ E). congruence.
Qed.

Lemma nan_adds m k v : TI (tbl K V m) -> eqb k k = false -> cnt K V (sset m k v) = cnt K V m + 1.
Proof. intros HT Hn. unfold Simple.sset. now rewrite (nan_not_found m k HT Hn). Qed.

Lemma cfind_in i k c v : Forall (cok i) c -> cfind k c = Some v ->
  exists k', In (k', v) (live c) /\ eqb k k' = true.
Proof.
  intros F. induction F as [|x c Hx F IH]; simpl; [discriminate|].
  rewrite (cmatch_ok i k x Hx). destruct x as [|t kx vx]; simpl.
  - apply IH.
  - destruct (eqb k kx) eqn:E.
    + intros [= <-]. exists kx. auto.
    + intros H. destruct (IH H) as (k' & Hin & Ek). exists k'. auto.
Qed.

Lemma in_live k v c : In (k, v) (live c) <-> exists t, In (Full t k v) c.
Proof.
  unfold Simple.live. rewrite in_flat_map. split.
  - intros (x & Hx & Hin). destruct x as [|t k0 v0]; simpl in Hin; [tauto|].
    destruct Hin as [[= -> ->]|[]]. eauto.
  - intros (t & Ht). exists (Full t k v). simpl; auto.
Qed.

Lemma in_cfind i k v c : Forall (cok i) c -> cuniq c -> In (k, v) (live c) -> eqb k k = true ->
  cfind k c = Some v.
Proof.
  intros F. induction F as [|x c Hx F IH]; simpl; [tauto|]. intros [H1 H2].
  rewrite (cmatch_ok i k x Hx). destruct x as [|t kx vx]; simpl.
  - apply IH; auto.
  - intros [[= -> ->]|Hin] Hr.
    + now rewrite Hr.
    + destruct (eqb k kx) eqn:E; [|apply IH; auto].
      (* a later cell with the same key contradicts uniqueness *)
      exfalso. apply in_live in Hin as (t' & Hc). specialize (H1 _ Hc). simpl in H1.
      rewrite eqb_sym in H1. congruence.
Qed.

Lemma in_siter t k v : In (k, v) (flat_map live t) -> exists i, (i < length t)%nat /\ In (k, v) (live (nth i t [])).
Proof.
  intros H. apply in_flat_map in H as (c & Hc & Hin).
  destruct (In_nth _ _ [] Hc) as (i & Hi & <-). eauto.
Qed.

Lemma live_cok i k v c : Forall (cok i) c -> In (k, v) (live c) -> idx k = i.
Proof.
  intros F H. apply in_live in H as (t & Ht). rewrite Forall_forall in F. now destruct (F _ Ht).
Qed.

Lemma siter_sound m k v : TI (tbl K V m) -> In (k, v) (siter K V m) -> eqb k k = true -> slookup m k = Some v.
Proof.
  intros HT Hin Hr. unfold Simple.siter in Hin. destruct (in_siter _ _ _ Hin) as (i & Hi & Hl).
  destruct HT as [L H]. destruct (H i Hi) as [F U].
  assert (idx k = i) by (eapply live_cok; eauto). subst i.
  unfold Simple.slookup. eapply in_cfind; eauto.
Qed.

Lemma siter_complete m k v : TI (tbl K V m) -> slookup m k = Some v ->
  exists k', In (k', v) (siter K V m) /\ eqb k k' = true.
Proof.
  intros HT Hs. destruct (TI_chain _ k HT) as [F U]. unfold Simple.slookup in Hs.
  destruct (cfind_in _ _ _ _ F Hs) as (k' & Hin & E). exists k'. split; auto.
  unfold Simple.siter. apply in_flat_map. exists (nth (idx k) (tbl K V m) []). split; auto.
  apply nth_In. apply idx_lt; auto.
Qed.

End SimpleProofs.

Lemma trace_eqb_eq a b : trace_eqb a b = true -> a = b.
Proof. apply list_eqb_eq. intros x y. apply list_eqb_eq. intros u v. apply N.eqb_eq. Qed.

Lemma neq_of_trace_eqb a b : trace_eqb a b = false -> a <> b.
Proof.
  intros H E. subst b. rewrite (list_eqb_refl _ (list_eqb_refl _ N.eqb_refl)) in H. discriminate.
Qed.

Lemma traces_eq_neq s a b : trace_eqb a s && negb (trace_eqb b s) = true -> a = s /\ b <> s.
Proof.
  intros H. apply andb_prop in H as [H1 H2]. split; [now apply trace_eqb_eq|].
  apply neq_of_trace_eqb. now apply negb_true_iff.
Qed.

(* The history of the clear finding on the heap-level model against the specification:
   with memclr implemented the results are those of the specification, with the original
   empty memclr stubs they are not (a key is lost).  Each of the three traces is evaluated
   once: the specification's is bound once and used in both comparisons. *)
Lemma clear_witness_runs :
  (let spec := spec_run [] (snd (witness_clear true)) in
   trace_eqb (run_history_obs (witness_clear true)) spec &&
   negb (trace_eqb (run_history_obs (witness_clear false)) spec)) = true.
Proof. vm_compute. reflexivity. Qed.

(* the operations do not depend on the flag; stated apart so that no tactic compares the two histories *)
Lemma witness_clear_ops fixed : snd (witness_clear fixed) = snd (witness_clear true).
Proof. reflexivity. Qed.

Lemma clear_witness :
  run_history_obs (witness_clear true) = spec_run [] (snd (witness_clear true)) /\
  run_history_obs (witness_clear false) <> spec_run [] (snd (witness_clear false)).
Proof.
  rewrite (witness_clear_ops false).
  exact (traces_eq_neq (spec_run [] (snd (witness_clear true))) (run_history_obs (witness_clear true))
           (run_history_obs (witness_clear false)) clear_witness_runs).
Qed.

Lemma nan_clear_witness :
  yields_present [] (snd witness_nan) (run_history witness_nan) = false.
Proof. vm_compute. reflexivity. Qed.

Lemma is_nan_canon a : is_nan a = N.testbit (canon a) 55.
Proof. unfold is_nan, canon. rewrite N.clearbit_neq; auto. discriminate. Qed.
Lemma keq_sym a b : keq a b = keq b a.
Proof.
  unfold keq. destruct (canon a =? canon b) eqn:E.
  - apply N.eqb_eq in E. rewrite (is_nan_canon a), (is_nan_canon b), E. now rewrite N.eqb_refl.
  - rewrite N.eqb_sym, E. now rewrite !andb_false_r.
Qed.
Lemma keq_trans a b c : keq a b = true -> keq b c = true -> keq a c = true.
Proof.
  unfold keq. intros H1 H2. apply andb_true_iff in H1 as [N1 E1], H2 as [N2 E2].
  apply N.eqb_eq in E1, E2. rewrite N1. simpl. apply N.eqb_eq. congruence.
Qed.
Lemma shash_keq a b : keq a b = true -> shash a = shash b.
Proof. unfold keq, shash. intros H. apply andb_true_iff in H as [_ E]. now apply N.eqb_eq in E. Qed.
