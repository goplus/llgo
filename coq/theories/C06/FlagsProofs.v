(* C06 - proofs about the key-type analysis (Flags.v) *)
From LLGoV Require Import C06.Flags.
Local Open Scope N_scope.

Section KtyInd.
Variable P : kty -> Prop.
Hypothesis Hb : forall b, P (KBasic b).
Hypothesis Hp : P KPtr.
Hypothesis Hc : P KChan.
Hypothesis Hi : P KIface.
Hypothesis Ha : forall n e, P e -> P (KArr n e).
Hypothesis Hs : forall fs, Forall P fs -> P (KStruct fs).
Hypothesis Hn : forall u, P u -> P (KNamed u).
Fixpoint kty_ind' (t : kty) : P t :=
  match t with
  | KBasic b => Hb b
  | KPtr => Hp
  | KChan => Hc
  | KIface => Hi
  | KArr n e => Ha n e (kty_ind' e)
  | KStruct fs => Hs fs ((fix go (l : list kty) : Forall P l :=
                            match l with [] => Forall_nil P | f :: r => Forall_cons f (kty_ind' f) (go r) end) fs)
  | KNamed u => Hn u (kty_ind' u)
  end.
End KtyInd.

Lemma forallb_false {A} (f : A -> bool) l : forallb f l = false <-> exists x, In x l /\ f x = false.
Proof.
  induction l as [|a l IH]; simpl; [split; [discriminate|intros (x & [] & _)]|].
  rewrite andb_false_iff, IH. split.
  - intros [H|(x & Hin & H)]; eauto.
  - intros (x & [<-|Hin] & H); eauto.
Qed.

Lemma hmp_struct fs : hash_might_panic (KStruct fs) = existsb hash_might_panic fs.
Proof. simpl. induction fs as [|f r IH]; simpl; auto; try (now rewrite IH). Qed.
Lemma nku_struct fs : need_key_update (KStruct fs) = existsb need_key_update fs.
Proof. simpl. induction fs as [|f r IH]; simpl; auto; try (now rewrite IH). Qed.
Lemma refl_struct fs : is_reflexive (KStruct fs) = forallb is_reflexive fs.
Proof. simpl. induction fs as [|f r IH]; simpl; auto; try (now rewrite IH). Qed.

Lemma hash_might_panic_iff t : hash_might_panic t = true <-> reaches_iface t.
Proof.
  induction t as [b| | | |n e IHe|fs IHfs|u IHu] using kty_ind'.
  - split; [discriminate|inversion 1].
  - split; [discriminate|inversion 1].
  - split; [discriminate|inversion 1].
  - split; [constructor|reflexivity].
  - simpl. rewrite IHe. split; [now constructor|inversion 1; auto].
  - rewrite hmp_struct, existsb_exists. rewrite Forall_forall in IHfs. split.
    + intros (f & Hin & Hf). apply (RI_struct fs f); auto. now apply IHfs.
    + inversion 1; subst. exists f. split; auto. now apply IHfs.
  - simpl. rewrite IHu. split; [now constructor|inversion 1; auto].
Qed.

Lemma is_reflexive_iff t : is_reflexive t = false <-> (reaches_float t \/ reaches_iface t).
Proof.
  induction t as [b| | | |n e IHe|fs IHfs|u IHu] using kty_ind'.
  - destruct b; simpl.
    + split; [discriminate|intros [H|H]; inversion H].
    + split; [discriminate|intros [H|H]; inversion H].
    + split; [intros _; left; constructor|reflexivity].
    + split; [intros _; left; constructor|reflexivity].
    + split; [discriminate|intros [H|H]; inversion H].
    + split; [discriminate|intros [H|H]; inversion H].
  - split; [discriminate|intros [H|H]; inversion H].
  - split; [discriminate|intros [H|H]; inversion H].
  - split; [intros _; right; constructor|reflexivity].
  - simpl. rewrite IHe. split.
    + intros [H|H]; [left|right]; now constructor.
    + intros [H|H]; inversion H; auto.
  - rewrite refl_struct, forallb_false. rewrite Forall_forall in IHfs. split.
    + intros (f & Hin & Hf). destruct (proj1 (IHfs f Hin) Hf) as [R|R]; [left|right]; econstructor; eauto.
    + intros HR. assert (E : exists f, In f fs /\ (reaches_float f \/ reaches_iface f))
        by (destruct HR as [HR|HR]; inversion HR; subst; eauto).
      destruct E as (f & Hin & Hf). exists f. split; auto. now apply IHfs.
  - simpl. rewrite IHu. split.
    + intros [H|H]; [left|right]; now constructor.
    + intros [H|H]; inversion H; auto.
Qed.

Lemma hmp_implies t : hash_might_panic t = true -> need_key_update t = true /\ is_reflexive t = false.
Proof.
  intros H. split.
  - induction t as [b| | | |n e IHe|fs IHfs|u IHu] using kty_ind'.
    + discriminate.
    + discriminate.
    + discriminate.
    + reflexivity.
    + now apply IHe.
    + rewrite hmp_struct, existsb_exists in H. destruct H as (f & Hin & Hf).
      rewrite nku_struct. apply existsb_exists. exists f. split; auto.
      rewrite Forall_forall in IHfs. auto.
    + now apply IHu.
  - apply is_reflexive_iff. right. now apply hash_might_panic_iff.
Qed.
