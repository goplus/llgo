(* C06 - proofs about the layer-2 model (Grow.v): starting a growth and evacuating a
   bucket change no lookup result and keep the structural invariant GI (every live key
   stored exactly once, in the bucket its hash selects under the current growth state);
   the model refines the association-list specification for every history. *)
From LLGoV Require Import C06.Simple C06.Proofs C06.Grow.
From Coq Require Import Lia.
Local Open Scope N_scope.

Section GrowProofs.
Variables (K V : Type) (eqb : K -> K -> bool) (hash : K -> N) (upd : bool).
Hypothesis eqb_sym : forall a b, eqb a b = eqb b a.
Hypothesis eqb_trans : forall a b c, eqb a b = true -> eqb b c = true -> eqb a c = true.
Hypothesis hash_eqb : forall a b, eqb a b = true -> hash a = hash b.

Notation cell := (Simple.cell K V).
Notation chain := (list (Simple.cell K V)).
Notation cfind := (cfind K V eqb hash).
Notation cok := (cok K V hash).
Notation cuniq := (cuniq K V eqb).
Notation gidx := (gidx K hash).
Notation useY := (useY K hash).
Notation is_full := (is_full K V).
Notation pad := (pad K V).
Notation gmap := (gmap K V).
Notation gB := (gB K V).
Notation cur := (cur K V).
Notation old := (old K V).
Notation same := (same K V).
Notation nev := (nev K V).
Notation gcnt := (gcnt K V).
Notation oldB := (oldB K V).
Notation growing := (growing K V).
Notation with_cur := (with_cur K V).
Notation mkG := (mkG K V).
Notation glookup := (glookup K V eqb hash).
Notation evacuate := (evacuate K V hash).
Notation advance := (advance K V).
Notation growWork := (growWork K V hash).
Notation hashGrow := (hashGrow K V).
Notation gset := (gset K V eqb hash upd).
Notation gdel := (gdel K V eqb hash).
Notation afind := (afind K V eqb).

Definition p2 (b : N) : nat := N.to_nat (2 ^ b).

Lemma p2_pos b : (0 < p2 b)%nat.
Proof. unfold p2. assert (2 ^ b <> 0) by (apply N.pow_nonzero; discriminate). lia. Qed.
Lemma p2_succ b : p2 (b + 1) = (2 * p2 b)%nat.
Proof. unfold p2. rewrite N.add_1_r, N.pow_succ_r', N2Nat.inj_mul. change (N.to_nat 2) with 2%nat. lia. Qed.
Lemma gidx_lt b k : (gidx b k < p2 b)%nat.
Proof. apply idx_bound. Qed.
Lemma gidx_split b k : gidx (b + 1) k = (gidx b k + if useY b k then p2 b else 0)%nat.
Proof.
  unfold Grow.gidx, Simple.idx, Grow.useY, p2.
  assert (P : 2 ^ b <> 0) by (apply N.pow_nonzero; discriminate).
  rewrite N.add_1_r, N.pow_succ_r', (N.mul_comm 2), N.mod_mul_r by (auto; discriminate).
  assert (H2 : (hash k / 2 ^ b) mod 2 < 2) by (apply N.mod_lt; discriminate).
  remember ((hash k / 2 ^ b) mod 2) as x eqn:Hx. clear Hx.
  remember (hash k mod 2 ^ b) as y eqn:Hy. clear Hy.
  remember (2 ^ b) as z eqn:Hz. clear Hz P.
  destruct (x =? 0) eqn:E; simpl.
  - apply N.eqb_eq in E. subst x. rewrite N.mul_0_r, N.add_0_r. lia.
  - apply N.eqb_neq in E. assert (H1 : x = 1) by lia. subst x. rewrite N.mul_1_r, N2Nat.inj_add. reflexivity.
Qed.
Lemma gidx_eqb b a c : eqb a c = true -> gidx b a = gidx b c.
Proof. intros H. unfold Grow.gidx, Simple.idx. now rewrite (hash_eqb _ _ H). Qed.

Lemma set_nth_length {A} i (x : A) l : length (set_nth i x l) = length l.
Proof. apply upd_nth_length. Qed.
Lemma nth_set_same {A} i (x : A) l d : (i < length l)%nat -> nth i (set_nth i x l) d = x.
Proof. intros. unfold set_nth. now rewrite nth_upd_same. Qed.
Lemma nth_set_other {A} i j (x : A) l d : i <> j -> nth j (set_nth i x l) d = nth j l d.
Proof. intros. unfold set_nth. now rewrite nth_upd_other. Qed.
Lemma nth_some_lt {A} j (l : list (option A)) c : nth j l None = Some c -> (j < length l)%nat.
Proof.
  intros H. destruct (Nat.lt_ge_cases j (length l)); auto. rewrite nth_overflow in H by auto. discriminate.
Qed.
Lemma nth_default_none {A} j (o : list (option A)) d : nth j o (Some d) = None -> nth j o None = None.
Proof. revert j. induction o as [|x o IH]; destruct j; simpl; auto; discriminate. Qed.
Lemma nth_map_some {A} j (l : list A) d : (j < length l)%nat -> nth j (map Some l) None = Some (nth j l d).
Proof. revert j. induction l as [|x l IH]; destruct j; simpl; intros; try lia; auto. apply IH. lia. Qed.

Lemma cfind_app_empty k l n : cfind k (l ++ repeat Empty n) = cfind k l.
Proof.
  induction l as [|x l IH]; simpl.
  - induction n; simpl; auto.
  - now rewrite IH.
Qed.

Lemma cfind_filter k (p : cell -> bool) c :
  (forall x, In x c -> cmatch K V eqb hash k x = true -> p x = true) ->
  cfind k (filter p c) = cfind k c.
Proof.
  induction c as [|x c IH]; simpl; auto. intros H.
  destruct (p x) eqn:Ep; simpl.
  - rewrite IH; auto.
  - destruct (cmatch K V eqb hash k x) eqn:Em.
    + rewrite (H x) in Ep; auto. discriminate.
    + apply IH. auto.
Qed.

Lemma Forall_filter {A} (P : A -> Prop) p l : Forall P l -> Forall P (filter p l).
Proof. induction 1; simpl; auto. destruct (p x); auto. Qed.

Lemma cuniq_filter (p : cell -> bool) c : cuniq c -> cuniq (filter p c).
Proof.
  induction c as [|x c IH]; simpl; auto. intros [H1 H2].
  destruct (p x); simpl; auto. split; auto.
  intros y Hy. apply filter_In in Hy. apply H1. tauto.
Qed.

Lemma cuniq_app_empty l n : cuniq l -> cuniq (l ++ repeat Empty n).
Proof.
  induction l as [|x l IH]; simpl.
  - intros _. apply cuniq_repeat.
  - intros [H1 H2]. split; auto. intros y Hy. apply in_app_or in Hy. destruct Hy as [Hy|Hy]; auto.
    apply repeat_spec in Hy. subst. now destruct x.
Qed.

Definition chain_ok (b : N) (i : nat) (c : chain) : Prop := Forall (cok b i) c /\ cuniq c.

Lemma chain_ok_filter b i (p : cell -> bool) c : chain_ok b i c -> chain_ok b i (filter p c).
Proof. intros [F U]. split; [now apply Forall_filter|now apply cuniq_filter]. Qed.

Lemma chain_ok_pad_filter b b' i i' (p : cell -> bool) c :
  chain_ok b i c ->
  (forall x, In x c -> p x = true -> cok b i x -> cok b' i' x) ->
  chain_ok b' i' (pad (filter p c)).
Proof.
  intros [F U] H. split.
  - apply Forall_app. split; [|apply cok_repeat].
    apply Forall_forall. intros x Hx. apply filter_In in Hx. destruct Hx as [Hx Hp].
    apply H; auto. rewrite Forall_forall in F. auto.
  - apply cuniq_app_empty. now apply cuniq_filter.
Qed.

(* GI m:
   1. the current array has 2^B chains; chain i holds only cells whose key hashes to i under
      B (and whose tophash is the key's), pairwise different keys;
   2. while growing the old array has 2^oldB entries, B = oldB (same-size) or oldB + 1;
   3. an old bucket j that is not evacuated holds only keys hashing to j under oldB, pairwise
      different, and its destination chain(s) j (and j + 2^oldB) of the current array are
      still empty;
   4. every old bucket below nevacuate is evacuated. *)
Definition GI (m : gmap) : Prop :=
  length (cur m) = p2 (gB m) /\
  (forall i, (i < length (cur m))%nat -> chain_ok (gB m) i (nth i (cur m) [])) /\
  (old m = [] \/ (length (old m) = p2 (oldB m) /\ (same m = false -> 1 <= gB m))) /\
  (forall j c, nth j (old m) None = Some c ->
      chain_ok (oldB m) j c /\ nth j (cur m) [] = [] /\
      (same m = false -> nth (j + p2 (oldB m)) (cur m) [] = [])) /\
  (forall j, N.of_nat j < nev m -> nth j (old m) None = None).

(* lookup without the count == 0 shortcut *)
Definition graw (m : gmap) (k : K) : option V :=
  match nth (gidx (oldB m) k) (old m) None with
  | Some c => cfind k c
  | None => cfind k (nth (gidx (gB m) k) (cur m) [])
  end.

Lemma glookup_graw m k : glookup m k = if gcnt m =? 0 then None else graw m k.
Proof. reflexivity. Qed.

Lemma glookup_of_graw m m' : gcnt m' = gcnt m -> (forall k, graw m' k = graw m k) ->
  forall k, glookup m' k = glookup m k.
Proof. intros C H k. now rewrite !glookup_graw, C, H. Qed.

(* the old bucket of k is evacuated (or the map is not growing): k lives in the current array *)
Definition kdone (m : gmap) (k : K) : Prop := nth (gidx (oldB m) k) (old m) None = None.

Lemma kdone_nil m k : old m = [] -> kdone m k.
Proof. unfold kdone. intros ->. now destruct (gidx (oldB m) k). Qed.

Lemma graw_done m k : kdone m k -> graw m k = cfind k (nth (gidx (gB m) k) (cur m) []).
Proof. intros H. unfold graw. now rewrite H. Qed.

Lemma GI_TI m : GI m -> TI K V eqb hash (gB m) (cur m).
Proof. intros (G1 & G2 & _). exact (conj G1 G2). Qed.

Lemma GI_idle m : old m = [] -> TI K V eqb hash (gB m) (cur m) -> GI m.
Proof.
  intros Ho [T1 T2]. unfold GI. rewrite Ho. split; [exact T1|]. split; [exact T2|]. split; [now left|].
  split; [intros j c Hj; destruct j; discriminate|intros j _; now destruct j].
Qed.

Lemma GI_chain m k : GI m -> chain_ok (gB m) (gidx (gB m) k) (nth (gidx (gB m) k) (cur m) []).
Proof. intros HG. exact (TI_chain K V eqb hash (gB m) _ k (GI_TI m HG)). Qed.

Lemma old_len m : GI m -> old m <> [] -> length (old m) = p2 (oldB m).
Proof. intros (_ & _ & [?|[? _]] & _) Hn; [contradiction|auto]. Qed.

Lemma gB_oldB m : GI m -> old m <> [] -> gB m = if same m then oldB m else oldB m + 1.
Proof.
  intros (_ & _ & [H|[_ H]] & _) Hn; [contradiction|]. unfold Grow.oldB in *.
  destruct (same m); auto. specialize (H eq_refl). lia.
Qed.

Lemma gidx_cur m k : GI m -> old m <> [] ->
  gidx (gB m) k = (gidx (oldB m) k + if same m then 0 else if useY (oldB m) k then p2 (oldB m) else 0)%nat.
Proof.
  intros HG Hn. rewrite (gB_oldB m HG Hn). destruct (same m); [lia|]. apply gidx_split.
Qed.

Lemma cur_len m : GI m -> old m <> [] ->
  length (cur m) = if same m then p2 (oldB m) else (2 * p2 (oldB m))%nat.
Proof.
  intros HG Hn. assert (H := gB_oldB m HG Hn). destruct HG as (L & _). rewrite L, H.
  destruct (same m); auto. apply p2_succ.
Qed.

(* m' is m seen later in the same growth: the invariant holds again, lookups and count are
   the same, and a key whose old bucket was evacuated stays so.  What advanceEvacuationMark,
   evacuate and growWork do to a map. *)
Definition later (m m' : gmap) : Prop :=
  GI m' /\ (forall k, graw m' k = graw m k) /\ gcnt m' = gcnt m /\ (forall k, kdone m k -> kdone m' k).

Lemma later_refl m : GI m -> later m m.
Proof. intros HG. split; [exact HG|]. split; [reflexivity|]. split; [reflexivity|auto]. Qed.

Lemma later_trans m1 m2 m3 : later m1 m2 -> later m2 m3 -> later m1 m3.
Proof.
  intros (_ & B & C & D) (A' & B' & C' & D'). split; [exact A'|].
  split; [intros k; now rewrite B', B|]. split; [congruence|auto].
Qed.

(* a key of another old bucket than j is stored in neither destination chain of j *)
Lemma dest_other m k j : GI m -> old m <> [] -> (j < p2 (oldB m))%nat -> gidx (oldB m) k <> j ->
  gidx (gB m) k <> j /\ gidx (gB m) k <> (j + p2 (oldB m))%nat.
Proof.
  intros HG Hn Hj Hne. rewrite (gidx_cur m k HG Hn). assert (L := gidx_lt (oldB m) k).
  destruct (same m); [lia|]. destruct (useY (oldB m) k); lia.
Qed.

Lemma adv_loop_spec fuel (o : list (option chain)) n stop :
  n <= adv_loop K V fuel o n stop /\
  forall j, n <= N.of_nat j -> N.of_nat j < adv_loop K V fuel o n stop -> nth j o None = None.
Proof.
  revert n. induction fuel as [|f IH]; intros n; simpl.
  - split; [lia|]. intros; lia.
  - destruct ((n <? stop) && is_none (nth (N.to_nat n) o (Some []))) eqn:E.
    + apply andb_true_iff in E as [E1 E2]. destruct (IH (n + 1)) as [H1 H2]. split; [lia|].
      intros j Hj1 Hj2. destruct (N.eq_dec (N.of_nat j) n) as [Hje|Hne].
      * subst n. rewrite Nat2N.id in E2. destruct (nth j o (Some [])) eqn:En; [discriminate|].
        eapply nth_default_none; eauto.
      * apply H2; lia.
    + split; [lia|]. intros; lia.
Qed.

Lemma maybe_advance m j : GI m -> old m <> [] -> nth j (old m) None = None ->
  later m (if N.of_nat j =? nev m then advance m else m).
Proof.
  intros HG Hn Hj. destruct (N.of_nat j =? nev m) eqn:Ej; [|now apply later_refl]. apply N.eqb_eq in Ej.
  assert (Hlo := old_len m HG Hn). destruct HG as (G1 & G2 & G3 & G4 & G5).
  unfold Grow.advance.
  destruct (adv_loop_spec (N.to_nat 1024) (old m) (nev m + 1) (N.min (nev m + 1 + 1024) (2 ^ oldB m))) as [A1 A2].
  set (n2 := adv_loop K V (N.to_nat 1024) (old m) (nev m + 1) (N.min (nev m + 1 + 1024) (2 ^ oldB m))) in *.
  assert (Hall : forall j', N.of_nat j' < n2 -> nth j' (old m) None = None).
  { intros j' Hj'. destruct (N.lt_ge_cases (N.of_nat j') (nev m)); [auto|].
    destruct (N.eq_dec (N.of_nat j') (nev m)) as [E|E].
    - rewrite <- Ej in E. apply Nat2N.inj in E. now subst j'.
    - apply A2; lia. }
  destruct (n2 =? 2 ^ oldB m) eqn:Ed.
  - (* growing is all done: every old bucket is evacuated and the old array is dropped *)
    apply N.eqb_eq in Ed.
    assert (Hnone : forall j', nth j' (old m) None = None).
    { intros j'. destruct (Nat.lt_ge_cases j' (length (old m))) as [Hl|Hl]; [|now apply nth_overflow].
      apply Hall. rewrite Ed. unfold p2 in Hlo. lia. }
    split; [|split; [|split; [reflexivity|]]].
    + apply GI_idle; [reflexivity|exact (conj G1 G2)].
    + intros k. rewrite graw_done by now apply kdone_nil. unfold graw. now rewrite Hnone.
    + intros k _. now apply kdone_nil.
  - split; [|split; [|split]]; [|reflexivity|reflexivity|auto].
    unfold GI; simpl. split; [exact G1|]. split; [exact G2|]. split; [exact G3|]. split; [exact G4|exact Hall].
Qed.

Lemma chain_idx b j c t k v : chain_ok b j c -> In (Full t k v) c -> gidx b k = j.
Proof. intros [F _] Hx. rewrite Forall_forall in F. exact (proj2 (F _ Hx)). Qed.

(* where a key of old bucket j goes when the array doubles *)
Lemma gidx_dest b k j : gidx b k = j ->
  (useY b k = true <-> gidx (b + 1) k = (j + p2 b)%nat) /\ (useY b k = false <-> gidx (b + 1) k = j).
Proof.
  intros <-. rewrite gidx_split. assert (Q := p2_pos b).
  destruct (useY b k); (split; split; intros; solve [reflexivity | discriminate | lia]).
Qed.

(* Moving the cells selected by q from a chain c' of old bucket j (which finds what c finds) to
   bucket i of an array with b' bits, when q selects exactly the keys that hash to i under b':
   the destination chain is well formed and finds for these keys what c finds. *)
Lemma moved_chain b b' j i (q : cell -> bool) c' c :
  chain_ok b j c' -> (forall k, cfind k c' = cfind k c) ->
  (forall t k v, In (Full t k v) c' -> (q (Full t k v) = true <-> gidx b' k = i)) ->
  chain_ok b' i (pad (filter q c')) /\
  forall k, gidx b' k = i -> cfind k (pad (filter q c')) = cfind k c.
Proof.
  intros Hc Hf Hq. split.
  - apply (chain_ok_pad_filter b b' j i); auto. intros [|t k v] Hx Hp; simpl; auto.
    intros [Ht _]. split; [exact Ht|]. exact (proj1 (Hq _ _ _ Hx) Hp).
  - intros k Hk. rewrite <- Hf. unfold Grow.pad. rewrite cfind_app_empty. apply cfind_filter. intros x Hx Hm.
    destruct Hc as [F _]. rewrite Forall_forall in F.
    rewrite (cmatch_ok K V eqb hash b hash_eqb j k x (F x Hx)) in Hm.
    destruct x as [|t kx v]; simpl in Hm; [discriminate|]. apply (Hq t kx v Hx).
    now rewrite <- (gidx_eqb b' k kx Hm).
Qed.

(* evacuate for any table [cur1] that differs from the current array in the destination chains
   of j only, these being well formed and finding for their keys what the old bucket found *)
Lemma evac_moved m j c cur1 :
  GI m -> old m <> [] -> nth j (old m) None = Some c ->
  length cur1 = length (cur m) ->
  (forall i, i <> j -> i <> (j + p2 (oldB m))%nat -> nth i cur1 [] = nth i (cur m) []) ->
  (forall i, i = j \/ same m = false /\ i = (j + p2 (oldB m))%nat ->
     chain_ok (gB m) i (nth i cur1 []) /\
     forall k, gidx (gB m) k = i -> cfind k (nth i cur1 []) = cfind k c) ->
  let m0 := mkG (gB m) cur1 (set_nth j None (old m)) (same m) (nev m) (gcnt m) in
  let m' := if N.of_nat j =? nev m0 then advance m0 else m0 in
  later m m' /\ forall k, gidx (oldB m) k = j -> kdone m' k.
Proof.
  intros HG Hn Ej Hlen1 Hframe Hdest m0.
  assert (Hj := nth_some_lt _ _ _ Ej). assert (Hlo := old_len m HG Hn). rewrite Hlo in Hj.
  assert (Hlen := cur_len m HG Hn).
  assert (Hold : forall j', nth j' (old m0) None = if Nat.eq_dec j j' then None else nth j' (old m) None).
  { intros j'. unfold m0; simpl. destruct (Nat.eq_dec j j') as [<-|Hne].
    - apply nth_set_same. lia.
    - now apply nth_set_other. }
  assert (HoB : oldB m0 = oldB m) by reflexivity.
  (* before advanceEvacuationMark *)
  assert (L0 : later m m0).
  { split; [|split; [|split; [reflexivity|]]].
    - destruct HG as (G1 & G2 & G3 & G4 & G5). unfold GI. rewrite HoB.
      split; [exact (eq_trans Hlen1 G1)|]. split.
      { intros i Hi. simpl in *. rewrite Hlen1 in Hi.
        destruct (Nat.eq_dec i j) as [->|N1]; [apply Hdest; auto|].
        destruct (Nat.eq_dec i (j + p2 (oldB m))) as [->|N2]; [|rewrite Hframe by auto; now apply G2].
        destruct (same m); [lia|apply Hdest; auto]. }
      split; [right; split; [simpl; now rewrite set_nth_length|destruct G3 as [?|[_ ?]]; [contradiction|auto]]|].
      split.
      + intros j' c'. rewrite Hold. destruct (Nat.eq_dec j j') as [<-|Hne]; [discriminate|]. intros Hj'.
        destruct (G4 j' c' Hj') as (C1 & C2 & C3).
        assert (Hj'l := nth_some_lt _ _ _ Hj'). rewrite Hlo in Hj'l. simpl.
        split; [exact C1|]. split; [|intros Hs]; (rewrite Hframe by lia); auto.
      + intros j' Hj'. rewrite Hold. destruct (Nat.eq_dec j j'); auto.
    - intros k. unfold graw. rewrite HoB, Hold. simpl.
      destruct (Nat.eq_dec j (gidx (oldB m) k)) as [E|Hne].
      + rewrite <- E, Ej. apply Hdest; [|reflexivity].
        rewrite (gidx_cur m k HG Hn), <- E. destruct (same m); [left; lia|].
        destruct (useY (oldB m) k); [right; auto|left; lia].
      + destruct (nth (gidx (oldB m) k) (old m) None); auto.
        destruct (dest_other m k j HG Hn Hj) as [N1 N2]; auto. now rewrite Hframe.
    - intros k Hk. unfold kdone. rewrite HoB, Hold. now destruct (Nat.eq_dec j (gidx (oldB m) k)). }
  assert (Hn0 : old m0 <> []).
  { unfold m0; simpl. intros E. apply (f_equal (@length _)) in E. rewrite set_nth_length in E. simpl in E. lia. }
  assert (Hj0 : nth j (old m0) None = None) by (rewrite Hold; now destruct (Nat.eq_dec j j)).
  assert (L1 := maybe_advance m0 j (proj1 L0) Hn0 Hj0).
  split; [exact (later_trans _ _ _ L0 L1)|].
  intros k Hk. apply L1. unfold kdone. now rewrite HoB, Hk.
Qed.

Lemma evacuate_ok m j : GI m -> old m <> [] ->
  later m (evacuate m j) /\ forall k, gidx (oldB m) k = j -> kdone (evacuate m j) k.
Proof.
  intros HG Hn. unfold Grow.evacuate.
  destruct (nth j (old m) None) as [c|] eqn:Ej.
  2:{ assert (L := maybe_advance m j HG Hn Ej). split; [exact L|].
      intros k Hk. apply L. unfold kdone. now rewrite Hk. }
  assert (Hj := nth_some_lt _ _ _ Ej). rewrite (old_len m HG Hn) in Hj.
  assert (Hlen := cur_len m HG Hn). assert (HgB := gB_oldB m HG Hn).
  assert (Cok : chain_ok (oldB m) j c) by (apply HG; auto).
  assert (Hfull := chain_ok_filter _ _ is_full c Cok).
  assert (Efull : forall k, cfind k (filter is_full c) = cfind k c).
  { intros k. apply cfind_filter. intros [|? ? ?] _; [discriminate|reflexivity]. }
  apply (evac_moved m j c _ HG Hn Ej); fold (p2 (oldB m)).
  - (* length *)
    destruct (same m); now rewrite ?set_nth_length.
  - (* the other chains are not written *)
    intros i Hi Hi2. destruct (same m); now rewrite !nth_set_other by congruence.
  - (* the destination chains *)
    rewrite HgB. destruct (same m).
    + (* same size: every cell stays in bucket j *)
      intros i [->|[? _]]; [|discriminate]. rewrite nth_set_same by lia.
      apply (moved_chain (oldB m) (oldB m) j j); auto.
      intros t k v Hx. split; [intros _; now apply (chain_idx _ _ c t k v)|reflexivity].
    + (* doubling: the cells go to j or to j + 2^oldB by the next hash bit *)
      intros i [->|[_ ->]].
      * rewrite nth_set_other, nth_set_same by lia.
        apply (moved_chain (oldB m) (oldB m + 1) j j); auto.
        intros t k v Hx. simpl. rewrite negb_true_iff. now apply gidx_dest, (chain_idx _ _ _ t k v Hfull).
      * rewrite nth_set_same by (rewrite set_nth_length; lia).
        apply (moved_chain (oldB m) (oldB m + 1) j (j + p2 (oldB m))); auto.
        intros t k v Hx. now apply gidx_dest, (chain_idx _ _ _ t k v Hfull).
Qed.

Lemma growWork_ok m k : GI m -> old m <> [] -> later m (growWork m k) /\ kdone (growWork m k) k.
Proof.
  intros HG Hn. unfold Grow.growWork.
  destruct (evacuate_ok m (gidx (oldB m) k) HG Hn) as [L1 D1].
  set (m1 := evacuate m (gidx (oldB m) k)) in *. specialize (D1 k eq_refl).
  unfold Grow.growing. destruct (old m1) eqn:Eo; [auto|].
  destruct (evacuate_ok m1 (N.to_nat (nev m1)) (proj1 L1)) as [L2 _]; [congruence|].
  split; [exact (later_trans _ _ _ L1 L2)|]. now apply L2.
Qed.

Lemma hashGrow_ok m : GI m -> old m = [] ->
  GI (hashGrow m) /\ (forall k, graw (hashGrow m) k = graw m k) /\ gcnt (hashGrow m) = gcnt m.
Proof.
  intros HG Ho. destruct (GI_TI m HG) as [G1 G2]. unfold Grow.hashGrow.
  set (bigger := over (gcnt m + 1) (gB m)).
  set (b' := if bigger then gB m + 1 else gB m).
  assert (HoB : oldB (mkG b' (repeat [] (N.to_nat (2 ^ b'))) (map Some (cur m)) (negb bigger) 0 (gcnt m)) = gB m).
  { unfold Grow.oldB, b'; simpl. destruct bigger; simpl; lia. }
  destruct (TI_empty K V eqb hash b') as [E1 E2].
  split; [|split; [|reflexivity]].
  - unfold GI. rewrite HoB. simpl.
    split; [exact E1|]. split; [exact E2|].
    split; [right; split; [rewrite map_length; exact G1|unfold b'; destruct bigger; simpl; [lia|discriminate]]|].
    split; [|intros j Hj; lia].
    intros j c Hj. assert (Hl := nth_some_lt _ _ _ Hj). rewrite map_length in Hl.
    rewrite (nth_map_some j (cur m) [] Hl) in Hj. injection Hj as <-.
    split; [apply G2; auto|]. split; [apply nth_repeat_nil|intros _; apply nth_repeat_nil].
  - intros k. unfold graw. rewrite HoB. simpl. rewrite Ho.
    rewrite (nth_map_some (gidx (gB m) k) (cur m) []) by (rewrite G1; apply gidx_lt).
    now destruct (gidx (oldB m) k).
Qed.

(* [m1] is the map in which an assignment or deletion of k works on [m]; it rebinds k in the
   chain of the current array that k selects *)
Lemma rebind_ok m m1 k r f n : GI m1 -> kdone m1 k -> (forall k', graw m1 k' = graw m k') ->
  rebinds K V eqb hash (gB m1) (gidx (gB m1) k) k r
          (nth (gidx (gB m1) k) (cur m1) []) (f (nth (gidx (gB m1) k) (cur m1) [])) ->
  GI (with_cur m1 (upd_nth (gidx (gB m1) k) f (cur m1)) n) /\
  forall k', graw (with_cur m1 (upd_nth (gidx (gB m1) k) f (cur m1)) n) k' =
             if eqb k' k then r else graw m k'.
Proof.
  intros HG Hd HB Hr.
  destruct (TI_rebinds K V eqb hash (gB m1) hash_eqb (cur m1) k r f (GI_TI m1 HG) Hr) as [[T1 T2] L].
  split.
  - assert (HG' := HG). destruct HG as (G1 & G2 & G3 & G4 & G5).
    unfold GI, Grow.with_cur, Grow.oldB; simpl. fold (oldB m1).
    split; [exact T1|]. split; [exact T2|]. split; [exact G3|]. split; [|exact G5].
    intros j c Hj. destruct (G4 j c Hj) as (C1 & C2 & C3).
    assert (Hn : old m1 <> []) by (intros Q; rewrite Q in Hj; destruct j; discriminate).
    (* k is stored in no destination chain of a bucket that is still to be evacuated *)
    destruct (dest_other m1 k j HG' Hn) as [N1 N2].
    { rewrite <- (old_len m1 HG' Hn). eapply nth_some_lt; eauto. }
    { intros Q. unfold kdone in Hd. congruence. }
    split; [exact C1|]. split; [|intros Hs]; (rewrite nth_upd_other by auto); auto.
  - intros k'. rewrite <- HB. unfold graw, Grow.with_cur, Grow.oldB; simpl. fold (oldB m1).
    destruct (nth (gidx (oldB m1) k') (old m1) None) eqn:Ek; [|exact (L k')].
    destruct (eqb k' k) eqn:E; auto. rewrite (gidx_eqb _ _ _ E) in Ek. unfold kdone in Hd. congruence.
Qed.

(* the state in which an assignment or deletion of k works: growWork done if growing *)
Lemma prep_ok m k : GI m ->
  let m1 := if growing m then growWork m k else m in later m m1 /\ kdone m1 k.
Proof.
  intros HG. unfold Grow.growing. destruct (old m) eqn:Eo.
  - split; [now apply later_refl|now apply kdone_nil].
  - apply growWork_ok; auto. congruence.
Qed.

(* mapassign that may not start a growth: overwrite, or insert into the chain *)
Lemma gset0_ok m k v : GI m ->
  GI (gset 0 m k v) /\
  (forall k', graw (gset 0 m k v) k' = if eqb k' k then Some v else graw m k') /\
  gcnt (gset 0 m k v) = gcnt m + match graw m k with Some _ => 0 | None => 1 end.
Proof.
  intros HG. cbn [Grow.gset]. destruct (prep_ok m k HG) as [(A & B & C & _) D].
  set (m1 := if growing m then growWork m k else m) in *.
  rewrite <- (B k), (graw_done m1 k D). destruct (GI_chain m1 k A) as [F U].
  destruct (cfind k (nth (gidx (gB m1) k) (cur m1) [])) as [w|] eqn:Hf.
  - destruct (rebind_ok m m1 k (Some v) (cupd K V eqb hash upd k v) (gcnt m1) A D B) as [G L].
    { apply (cupd_rebinds K V eqb hash upd (gB m1) eqb_sym eqb_trans hash_eqb _ k v w); auto. }
    split; [exact G|]. split; [exact L|simpl; lia].
  - destruct (rebind_ok m m1 k (Some v) (cput K V hash k v) (gcnt m1 + 1) A D B) as [G L].
    { apply cput_rebinds; auto. }
    split; [exact G|]. split; [exact L|simpl; lia].
Qed.

Lemma gset_ok tries : forall m k v, GI m ->
  GI (gset tries m k v) /\
  (forall k', graw (gset tries m k v) k' = if eqb k' k then Some v else graw m k') /\
  gcnt (gset tries m k v) = gcnt m + match graw m k with Some _ => 0 | None => 1 end.
Proof.
  induction tries as [|t IH]; intros m k v HG; [now apply gset0_ok|].
  (* with a try left it does what gset 0 does, unless the insertion of an absent key starts a growth *)
  assert (W := gset0_ok m k v HG). cbn [Grow.gset] in *.
  destruct (prep_ok m k HG) as [(A & B & C & _) D].
  set (m1 := if growing m then growWork m k else m) in *.
  destruct (cfind k (nth (gidx (gB m1) k) (cur m1) [])) eqn:Hf; [exact W|].
  destruct (negb (growing m1) && (over (gcnt m1 + 1) (gB m1) || tooMany (novf K V (cur m1)) (gB m1))) eqn:Eg;
    [|exact W].
  (* start a growth, then again *)
  apply andb_true_iff in Eg as [Eg _]. unfold Grow.growing in Eg.
  assert (Ho : old m1 = []) by (destruct (old m1); [auto|discriminate]).
  destruct (hashGrow_ok m1 A Ho) as (H1 & H2 & H3).
  destruct (IH (hashGrow m1) k v H1) as (J1 & J2 & J3).
  split; [exact J1|]. split.
  - intros k'. rewrite J2, H2, B. reflexivity.
  - rewrite J3, H2, H3, (B k), C. reflexivity.
Qed.

Lemma graw_congr m k k' : GI m -> eqb k' k = true -> graw m k' = graw m k.
Proof.
  intros HG E. unfold graw.
  rewrite (gidx_eqb (oldB m) k' k E), (gidx_eqb (gB m) k' k E).
  destruct (nth (gidx (oldB m) k) (old m) None) as [c|] eqn:Ec.
  - destruct HG as (_ & _ & _ & G4 & _). destruct (G4 _ _ Ec) as ([F _] & _).
    apply (cfind_congr K V eqb hash (oldB m) eqb_sym eqb_trans hash_eqb (gidx (oldB m) k)); auto.
  - destruct (GI_chain m k HG) as [F _].
    apply (cfind_congr K V eqb hash (gB m) eqb_sym eqb_trans hash_eqb (gidx (gB m) k)); auto.
Qed.

Lemma gdel_ok m k : GI m -> gcnt m <> 0 ->
  GI (gdel m k) /\
  (forall k', graw (gdel m k) k' = if eqb k' k then None else graw m k') /\
  gcnt (gdel m k) = gcnt m - match graw m k with Some _ => 1 | None => 0 end.
Proof.
  intros HG Hc. unfold Grow.gdel. apply N.eqb_neq in Hc. rewrite Hc.
  destruct (prep_ok m k HG) as [(A & B & C & _) D].
  set (m1 := if growing m then growWork m k else m) in *.
  rewrite <- (B k), (graw_done m1 k D). destruct (GI_chain m1 k A) as [F U].
  destruct (cfind k (nth (gidx (gB m1) k) (cur m1) [])) as [w|] eqn:Hf.
  - destruct (rebind_ok m m1 k None (cdel K V eqb hash k) (gcnt m1 - 1) A D B) as [G L];
      [now apply cdel_rebinds|split; [exact G|split; [exact L|simpl; lia]]].
  - split; [exact A|]. split; [|lia].
    intros k'. destruct (eqb k' k) eqn:E; [|apply B].
    rewrite (graw_congr m1 k k' A E), (graw_done m1 k D). exact Hf.
Qed.

Definition GR (m : gmap) (l : list (K * V)) : Prop := GI m /\ repr K V eqb (graw m) (gcnt m) l.

Lemma GR_fresh b : GR (gempty K V b) [].
Proof.
  split; [|split; [|split; simpl; auto]].
  - apply GI_idle; [reflexivity|apply TI_empty].
  - intros k. rewrite graw_done by now apply kdone_nil. simpl. now rewrite nth_repeat_nil.
Qed.

Lemma GR_lookup m l k : GR m l -> glookup m k = afind k l.
Proof.
  intros (HG & HA). rewrite glookup_graw. destruct (gcnt m =? 0) eqn:E; [|apply HA].
  apply N.eqb_eq in E. now rewrite (repr_zero K V eqb _ _ _ HA E).
Qed.

Lemma GR_step m l o : GR m l ->
  GR (fst (gstep K V eqb hash upd m o)) (fst (astep K V eqb l o)) /\
  snd (gstep K V eqb hash upd m o) = snd (astep K V eqb l o).
Proof.
  intros HR. assert (HR' := HR). destruct HR as (HG & HA).
  destruct o as [k v|k|k| |]; cbn [Grow.gstep Simple.astep fst snd]; (split; [|try reflexivity]).
  - destruct (gset_ok 4 m k v HG) as (A & L & C). split; [exact A|].
    rewrite C. exact (repr_set K V eqb eqb_sym eqb_trans _ _ _ k v _ HA L).
  - exact HR'.
  - f_equal. now apply GR_lookup.
  - destruct (gcnt m =? 0) eqn:Ec.
    + apply N.eqb_eq in Ec. unfold Grow.gdel. rewrite (repr_zero K V eqb _ _ _ HA Ec) in *. now rewrite Ec.
    + apply N.eqb_neq in Ec. destruct (gdel_ok m k HG Ec) as (A & L & C). split; [exact A|].
      rewrite C. exact (repr_del K V eqb eqb_sym eqb_trans _ _ _ k _ HA L).
  - unfold Grow.gclear. destruct (gcnt m =? 0) eqn:Ec; [|apply GR_fresh].
    apply N.eqb_eq in Ec. now rewrite (repr_zero K V eqb _ _ _ HA Ec) in *.
  - exact HR'.
  - f_equal. apply HA.
Qed.

Theorem grun_refines : forall ops m l, GR m l ->
  grun K V eqb hash upd m ops = arun K V eqb l ops.
Proof.
  induction ops as [|o ops IH]; simpl; auto. intros m l HR.
  destruct (GR_step m l o HR) as [HR' Hres].
  destruct (gstep K V eqb hash upd m o) as [m1 r1], (astep K V eqb l o) as [l1 r2]; simpl in *.
  subst. f_equal. now apply IH.
Qed.

Definition gfinal (b : N) (ops : list (sop K V)) : gmap :=
  fold_left (fun m o => fst (gstep K V eqb hash upd m o)) ops (gempty K V b).
Definition afinal' (ops : list (sop K V)) : list (K * V) :=
  fold_left (fun l o => fst (astep K V eqb l o)) ops [].

Lemma GR_final b ops : GR (gfinal b ops) (afinal' ops).
Proof.
  unfold gfinal, afinal'. apply (fold_left_rel GR); [|apply GR_fresh].
  intros m l o HR. now apply GR_step.
Qed.

End GrowProofs.
