(* C06 - property theorems only (statements in full; the lemmas they are derived from are
   in Proofs.v, GrowProofs.v and FlagsProofs.v).

   Three models are tied to runtime/internal/runtime/map.go by the correspondence harness:
   - Model.v  : heap-level, bucket-exact (tophash codes, overflow links, incremental
                evacuation, iterators).  Agrees with the real code on whole traces incl.
                B, noverflow, flags, nevacuate and iteration order.
   - Simple.v : layer 1, 2^B chains of 8-slot buckets without growth.  Agrees with the
                real code on every API-level result.
   - Grow.v   : layer 2, Simple.v plus growth as map.go does it: hashGrow (doubling and
                same-size), old and current bucket arrays, evacuation of one old bucket into
                its X / Y halves, growWork on assignment and deletion, nevacuate, lookups that
                consult the old bucket while it is not evacuated; abstract in the hash, no
                pointers.  Agrees with the real code on every API-level result.
   The _partial theorems of Section Layer1 are about Simple.v; Section Layer2 proves the
   refinement across growth for Grow.v (what is still not proved: iteration during growth
   and the pointer-level details of Model.v, which are tied by correspondence only); the
   nil-map theorems and the two refutations are about Model.v. *)
From LLGoV Require Import C06.Model C06.Simple C06.SimpleRun C06.Proofs C06.Grow C06.GrowRun C06.GrowProofs C06.Flags C06.FlagsProofs.
Local Open Scope N_scope.

Section Layer1.
Variables (K V : Type) (eqb : K -> K -> bool) (hash : K -> N) (upd : bool) (B : N).
(* key equality is a partial equivalence (k = k may fail: NaN), respected by the hash *)
Hypothesis eqb_sym : forall a b, eqb a b = eqb b a.
Hypothesis eqb_trans : forall a b c, eqb a b = true -> eqb b c = true -> eqb a c = true.
Hypothesis hash_eqb : forall a b, eqb a b = true -> hash a = hash b.

(* every history of insert / update / delete / lookup / clear / len gives, operation by
   operation, the results of the association-list specification *)
Theorem hmap_refines_fmap_partial : forall ops : list (sop K V),
  srun K V eqb hash upd B (empty_map K V B) ops = arun K V eqb [] ops.
Proof. intros. apply (srun_refines K V eqb hash upd B eqb_sym eqb_trans hash_eqb). apply (R_empty K V eqb hash B). Qed.

(* after any history: len = number of live entries, and the live entries have pairwise
   different keys *)
Theorem count_is_live_entries_partial : forall ops : list (sop K V),
  cnt K V (sfinal K V eqb hash upd B ops) = N.of_nat (length (afinal K V eqb ops)) /\
  kuniq K eqb (map fst (afinal K V eqb ops)).
Proof. intros. destruct (R_final K V eqb hash upd B eqb_sym eqb_trans hash_eqb ops) as (_ & _ & H1 & H2). auto. Qed.

(* after any history every chain i holds only cells whose key hashes to i and whose
   tophash is the key's, and no two cells of a chain hold equal keys: a live key is
   stored exactly once, where lookups search for it *)
Theorem live_key_stored_once_partial : forall (ops : list (sop K V)) (i : nat),
  (i < length (tbl K V (sfinal K V eqb hash upd B ops)))%nat ->
  Forall (cok K V hash B i) (nth i (tbl K V (sfinal K V eqb hash upd B ops)) []) /\
  cuniq K V eqb (nth i (tbl K V (sfinal K V eqb hash upd B ops)) []).
Proof. intros ops i Hi. destruct (R_final K V eqb hash upd B eqb_sym eqb_trans hash_eqb ops) as ((_ & H) & _). auto. Qed.

(* a key that is not equal to itself (NaN) is never found and every store of it adds an entry *)
Theorem nan_insert_always_adds_partial : forall (ops : list (sop K V)) k v, eqb k k = false ->
  slookup K V eqb hash B (sfinal K V eqb hash upd B ops) k = None /\
  cnt K V (sset K V eqb hash upd B (sfinal K V eqb hash upd B ops) k v) = cnt K V (sfinal K V eqb hash upd B ops) + 1.
Proof.
  intros ops k v Hn. destruct (R_final K V eqb hash upd B eqb_sym eqb_trans hash_eqb ops) as (HT & _).
  split; [eapply nan_not_found|eapply nan_adds]; eauto.
Qed.

(* a range loop over a quiescent map (no growth in this layer): every yielded entry with
   a reflexive key is the one lookups return, every entry lookups return is yielded, and
   (live_key_stored_once_partial) no key is yielded twice.  Partial: NaN-keyed entries are
   only counted (count_is_live_entries_partial), iteration during growth and under
   mutation is checked on the real code only *)
Theorem iter_quiescent_exactly_once_partial : forall (ops : list (sop K V)) k v,
  let m := sfinal K V eqb hash upd B ops in
  (In (k, v) (siter K V m) -> eqb k k = true -> slookup K V eqb hash B m k = Some v) /\
  (slookup K V eqb hash B m k = Some v -> exists k', In (k', v) (siter K V m) /\ eqb k k' = true).
Proof.
  intros ops k v m. destruct (R_final K V eqb hash upd B eqb_sym eqb_trans hash_eqb ops) as (HT & _).
  split; [eapply siter_sound|eapply siter_complete]; eauto.
Qed.
End Layer1.

Print Assumptions hmap_refines_fmap_partial.
Print Assumptions count_is_live_entries_partial.
Print Assumptions live_key_stored_once_partial.
Print Assumptions nan_insert_always_adds_partial.
Print Assumptions iter_quiescent_exactly_once_partial.

Section Layer2.
Variables (K V : Type) (eqb : K -> K -> bool) (hash : K -> N) (upd : bool).
Hypothesis eqb_sym : forall a b, eqb a b = eqb b a.
Hypothesis eqb_trans : forall a b c, eqb a b = true -> eqb b c = true -> eqb a c = true.
Hypothesis hash_eqb : forall a b, eqb a b = true -> hash a = hash b.

(* The invariant GI of a layer-2 map is described clause by clause above its definition in
   GrowProofs.v.  What it amounts to: a live key is stored exactly once, in the old bucket its
   hash selects while that bucket is not evacuated, else in the current bucket its hash selects
   - where lookups search. *)

(* every reachable state satisfies the invariant (any initial B: make(map, hint)) *)
Theorem reachable_invariant : forall b (ops : list (sop K V)),
  GI K V eqb hash (gfinal K V eqb hash upd b ops).
Proof. intros b ops. now destruct (GR_final K V eqb hash upd eqb_sym eqb_trans hash_eqb b ops). Qed.

(* starting a growth (doubling or same-size, whatever triggers it) changes no lookup result
   and keeps the invariant *)
Theorem grow_preserves_abs : forall m : gmap K V, GI K V eqb hash m -> old K V m = [] ->
  GI K V eqb hash (hashGrow K V m) /\
  forall k, glookup K V eqb hash (hashGrow K V m) k = glookup K V eqb hash m k.
Proof.
  intros m HG Ho. destruct (hashGrow_ok K V eqb hash m HG Ho) as (A & B & C).
  split; [exact A|]. now apply glookup_of_graw.
Qed.

(* evacuating any old bucket (followed by advanceEvacuationMark, which may end the growth)
   changes no lookup result and keeps the invariant: every live key is still stored exactly once *)
Theorem evacuate_preserves_abs : forall (m : gmap K V) (j : nat), GI K V eqb hash m -> old K V m <> [] ->
  GI K V eqb hash (evacuate K V hash m j) /\
  forall k, glookup K V eqb hash (evacuate K V hash m j) k = glookup K V eqb hash m k.
Proof.
  intros m j HG Hn. destruct (evacuate_ok K V eqb hash hash_eqb m j HG Hn) as [(A & B & C & _) _].
  split; [exact A|]. now apply glookup_of_graw.
Qed.

Theorem growWork_preserves_abs : forall (m : gmap K V) (k : K), GI K V eqb hash m -> old K V m <> [] ->
  GI K V eqb hash (growWork K V hash m k) /\
  forall k', glookup K V eqb hash (growWork K V hash m k) k' = glookup K V eqb hash m k'.
Proof.
  intros m k HG Hn. destruct (growWork_ok K V eqb hash hash_eqb m k HG Hn) as [(A & B & C & _) _].
  split; [exact A|]. now apply glookup_of_graw.
Qed.

(* every history of insert / update / delete / lookup / clear / len, from any initial size,
   across any number of doubling and same-size growths with incremental evacuation, gives
   operation by operation the results of the association-list specification *)
Theorem hmap_refines_fmap : forall b (ops : list (sop K V)),
  grun K V eqb hash upd (gempty K V b) ops = arun K V eqb [] ops.
Proof.
  intros. apply (grun_refines K V eqb hash upd eqb_sym eqb_trans hash_eqb). apply (GR_fresh K V eqb hash).
Qed.

(* len = number of live entries, live keys pairwise different, across growth *)
Theorem count_is_live_entries : forall b (ops : list (sop K V)),
  gcnt K V (gfinal K V eqb hash upd b ops) = N.of_nat (length (afinal' K V eqb ops)) /\
  kuniq K eqb (map fst (afinal' K V eqb ops)).
Proof.
  intros. destruct (GR_final K V eqb hash upd eqb_sym eqb_trans hash_eqb b ops) as (_ & _ & H1 & H2). auto.
Qed.
End Layer2.

Print Assumptions reachable_invariant.
Print Assumptions grow_preserves_abs.
Print Assumptions evacuate_preserves_abs.
Print Assumptions growWork_preserves_abs.
Print Assumptions hmap_refines_fmap.
Print Assumptions count_is_live_entries.

(* the layer-2 refinement for the key equality / hash of the correspondence harness *)
Theorem hmap_refines_fmap_harness_keys : forall upd b (ops : list (sop N N)),
  grun N N keq shash upd (gempty N N b) ops = arun N N keq [] ops.
Proof. intros. apply (hmap_refines_fmap N N keq shash upd keq_sym keq_trans shash_keq). Qed.
Print Assumptions hmap_refines_fmap_harness_keys.

(* non-trivial: 26 keys from B = 0 (three doublings, the last evacuation still in progress at
   the end: B = 3, growing), lookups of keys in evacuated and not yet evacuated buckets, delete *)
Example layer2_nontrivial :
  let ins := map (fun i => SSet N N (N.of_nat i * 4) (N.of_nat i)) (seq 0 26) in
  let ops := ins ++ [SGet N N 8; SDel N N 8; SGet N N 8; SGet N N 100; SGet N N 12; SLen N N] in
  let m := gfinal N N keq shash false 0 ins in
  (gB N N m, growing N N m, skipn 26 (grun N N keq shash false (gempty N N 0) ops))
  = (3, true, [RGet N (Some 2); RUnit N; RGet N None; RGet N (Some 25); RGet N (Some 3); RLen N 25]).
Proof. vm_compute. reflexivity. Qed.

(* the hypotheses are satisfiable: the key equality / hash of the correspondence harness
   (NaN-like keys never equal, a variant bit ignored) *)
Theorem hmap_refines_fmap_harness_keys_partial : forall upd B (ops : list (sop N N)),
  srun N N keq shash upd B (empty_map N N B) ops = arun N N keq [] ops.
Proof. intros. apply (hmap_refines_fmap_partial N N keq shash upd B keq_sym keq_trans shash_keq). Qed.
Print Assumptions hmap_refines_fmap_harness_keys_partial.

Example layer1_nontrivial :
  srun N N keq shash true 1 (empty_map N N 1)
    [SSet N N 5 1; SSet N N (K 0 2 0 7) 2; SSet N N (K 0 2 0 7) 3; SSet N N (K 0 1 0 5) 4; SGet N N 5; SGet N N (K 0 2 0 7);
     SDel N N 5; SGet N N 5; SLen N N]
  = [RUnit N; RUnit N; RUnit N; RUnit N; RGet N (Some 4); RGet N None; RUnit N; RGet N None; RLen N 2].
Proof. reflexivity. Qed.

(* ---------- heap-level model ---------- *)
(* reading a nil map yields zero values, len 0, delete / clear / range do nothing *)
Theorem nil_map_read_zero : forall (T : mtype) fuel m its k,
  step T fuel (mkW m None its) (OGet k) = Ok ([0; 0], mkW m None its) /\
  step T fuel (mkW m None its) (OGet1 k) = Ok ([0], mkW m None its) /\
  step T fuel (mkW m None its) OLen = Ok ([0], mkW m None its) /\
  step T fuel (mkW m None its) (ODel k) = Ok ([], mkW m None its) /\
  step T fuel (mkW m None its) OClear = Ok ([], mkW m None its).
Proof. repeat split; reflexivity. Qed.
Print Assumptions nil_map_read_zero.

Theorem nil_map_range_empty : forall (T : mtype) fuel m its,
  exists w, step T fuel (mkW m None its) ODrain = Ok ([], w) /\ wh w = None.
Proof. eexists. split; reflexivity. Qed.
Print Assumptions nil_map_range_empty.

(* writing to a nil map panics and changes nothing *)
Theorem nil_map_write_panics : forall (T : mtype) fuel m its k v,
  step T fuel (mkW m None its) (OSet k v) = Ok ([PANIC], mkW m None its).
Proof. reflexivity. Qed.
Print Assumptions nil_map_write_panics.

(* The finite-map property was FALSE of the code as it stood (and of its faithful model):
   1. with the empty memclr stubs of the original stubs.go (model flag c_memclr = false) clear()
      keeps stale overflow links: there is a history on a non-nil map whose API-level results
      differ from the specification (a key stored after the clear is not found after the next
      growth).  Repaired by props/C06/fixes/apply/01: the harness keeps replaying the witness on
      the real code as a regression guard. *)
Theorem hmap_refines_fmap_without_memclr_refuted : exists x : config * list op,
  c_nil (fst x) = false /\ c_memclr (fst x) = false /\ run_history_obs x <> spec_run [] (snd x).
Proof.
  exists (witness_clear false). split; [reflexivity|]. split; [reflexivity|]. exact (proj2 clear_witness).
Qed.
Print Assumptions hmap_refines_fmap_without_memclr_refuted.

(* with memclr implemented (c_memclr = true, the model of the code that exists) the same
   history gives exactly the results of the specification.  Partial: one history, by
   evaluation; the general statement for the heap-level model is not proved *)
Theorem clear_witness_refines_fmap_partial :
  c_memclr (fst (witness_clear true)) = true /\
  run_history_obs (witness_clear true) = spec_run [] (snd (witness_clear true)).
Proof. split; [reflexivity|exact (proj1 clear_witness)]. Qed.
Print Assumptions clear_witness_refines_fmap_partial.

(* 2. (still true of the code) a range loop that still walks a bucket array older than
      h.oldbuckets yields NaN-keyed entries that clear() removed *)
Theorem iter_yields_only_present_refuted : exists x : config * list op,
  yields_present [] (snd x) (run_history x) = false.
Proof. exists witness_nan. exact nan_clear_witness. Qed.
Print Assumptions iter_yields_only_present_refuted.

(* ---------- key-type analysis of ssa/abi/map.go (Flags.v; compared with hashMightPanic /
   IsReflexive / needkeyupdate / MapTypeFlags on generated key types) ---------- *)
(* the HashMightPanic flag is set exactly when an interface type is reachable from the key type
   through array elements (of any length), struct fields and underlying types: exactly then the
   hash of a key can panic on an unhashable dynamic value, and the nil / empty map fast paths of
   mapaccess1 / mapaccess2 / mapdelete must still call the hasher *)
Theorem hash_might_panic_iff_interface_reachable : forall t : kty,
  hash_might_panic t = true <-> reaches_iface t.
Proof. exact hash_might_panic_iff. Qed.
Print Assumptions hash_might_panic_iff_interface_reachable.

(* a key type is reflexive exactly when neither a float / complex nor an interface is reachable *)
Theorem is_reflexive_iff_no_float_no_interface : forall t : kty,
  is_reflexive t = false <-> (reaches_float t \/ reaches_iface t).
Proof. exact is_reflexive_iff. Qed.
Print Assumptions is_reflexive_iff_no_float_no_interface.

(* whenever the hash might panic the key is re-stored on overwrite and the type is not reflexive *)
Theorem hash_might_panic_implies_flags : forall t : kty, hash_might_panic t = true ->
  need_key_update t = true /\ is_reflexive t = false.
Proof. exact hmp_implies. Qed.
Print Assumptions hash_might_panic_implies_flags.

Example flags_nontrivial :
  map key_flags [KArr 2 KIface; KNamed (KArr 2 KIface); KStruct [KBasic BInt; KArr 1 KIface];
                 KArr 2 (KArr 1 KIface); KArr 1 (KStruct [KIface]); KArr 2 (KBasic BFloat); KStruct [KBasic BString; KPtr]]
  = [24; 24; 24; 24; 24; 8; 12].
Proof. reflexivity. Qed.
