(* C13 - proofs.  Invariant of the cache: every entry was compiled from a package with that
   fingerprint (cache_ok); with a covering manifest equal fingerprints mean packages the compiler
   cannot tell apart (fp_rel_eq), so a hit returns what a clean build would produce. *)
From LLGoV Require Import C13.Model.

Lemma kind_of_code a : nth (N.to_nat (kind_code a)) all_kinds KPkgId = a.
Proof. destruct a; reflexivity. Qed.

Lemma kind_code_inj a b : kind_code a = kind_code b -> a = b.
Proof. intros H. rewrite <- (kind_of_code a), H. apply kind_of_code. Qed.

Lemma kind_eqb_eq a b : kind_eqb a b = true <-> a = b.
Proof.
  unfold kind_eqb. rewrite N.eqb_eq. split; [apply kind_code_inj | now intros ->].
Qed.

Lemma kind_eqb_refl a : kind_eqb a a = true.
Proof. now apply kind_eqb_eq. Qed.

Lemma memk_In k ks : memk k ks = true <-> In k ks.
Proof. apply existsb_eqb_In, kind_eqb_eq. Qed.

Lemma covers_incl have need :
  covers have need = true <-> (forall k, In k need -> In k have).
Proof.
  unfold covers. rewrite forallb_forall. split; intros H k Hk; apply memk_In; now apply H.
Qed.

Lemma forallb_filter_nil {A} (f : A -> bool) l :
  forallb f l = true <-> filter (fun x => negb (f x)) l = [].
Proof.
  induction l as [|x l IH]; cbn; [tauto|].
  destruct (f x); cbn; [exact IH|]. split; discriminate.
Qed.

Definition agree (ks : list kind) (i j : inputs) : Prop := forall k, In k ks -> i k = j k.

Lemma vals_agree ks i j : vals ks i = vals ks j <-> agree ks i j.
Proof.
  unfold vals, agree. induction ks as [|k ks IH]; cbn.
  - split; [intros _ k [] | reflexivity].
  - split.
    + intros H. injection H as H1 H2. intros k' [<- | Hk]; [assumption|]. now apply IH.
    + intros H. f_equal; [apply H; now left|]. apply IH. intros k' Hk. apply H. now right.
Qed.

Lemma upd_same i k v : upd i k v k = v.
Proof. unfold upd. now rewrite kind_eqb_refl. Qed.

Lemma upd_other i k v k' : k' <> k -> upd i k v k' = i k'.
Proof.
  unfold upd. intros H. destruct (kind_eqb k' k) eqn:E; [|reflexivity].
  apply kind_eqb_eq in E. contradiction.
Qed.

Lemma vals_upd_notin ks i k v : ~ In k ks -> vals ks (upd i k v) = vals ks i.
Proof.
  intros H. apply vals_agree. intros k' Hk. apply upd_other. intros ->. contradiction.
Qed.

Section TreeInd.
  Variable P : tree -> Prop.
  Hypothesis HN : forall o s ds, Forall P ds -> P (Node o s ds).
  Fixpoint tree_ind' (t : tree) : P t :=
    match t with
    | Node o s ds =>
        HN o s ds ((fix go (l : list tree) : Forall P l :=
                      match l with
                      | [] => Forall_nil P
                      | x :: xs => Forall_cons x (tree_ind' x) (go xs)
                      end) ds)
    end.
End TreeInd.

(* two packages are indistinguishable for the compiler: same relevant inputs, and, import
   by import, either the same immutable module version (id, version: the sources stored in
   the module cache under a version do not change) or indistinguishable mutable packages *)
Inductive rel_eq (rel : list kind) : tree -> tree -> Prop :=
| RelEq o1 o2 s1 s2 d1 d2 :
    agree rel o1 o2 ->
    Forall2 (fun d d' =>
               (immutable (tst d) = true /\ immutable (tst d') = true /\
                town d KPkgId = town d' KPkgId /\ mver (tst d) = mver (tst d'))
               \/ (immutable (tst d) = false /\ immutable (tst d') = false /\ rel_eq rel d d'))
            d1 d2 ->
    rel_eq rel (Node o1 s1 d1) (Node o2 s2 d2).

Lemma length_trees m : length (trees m) = length m.
Proof. induction m as [|p m IH]; cbn; [reflexivity | now rewrite IH]. Qed.

Lemma map_fst_combine {A B} (xs : list A) (ys : list B) :
  length xs = length ys -> map fst (combine xs ys) = xs.
Proof.
  revert ys. induction xs as [|x xs IH]; intros [|y ys]; cbn; intros H; try reflexivity; try discriminate.
  f_equal. apply IH. now injection H.
Qed.

Lemma module_version_faithful s :
  module_version false s = if immutable s then Some (mver s) else None.
Proof. destruct s; reflexivity. Qed.

(* a module of one cacheable package of the main module, without imports *)
Definition one_pkg (i : inputs) : module :=
  [ {| p_own := i; p_deps := []; p_cacheable := true; p_mod := MMain |} ].

Section Sound.
  Variables key artifact : Type.
  Variable key_eqb : key -> key -> bool.
  Variable digest : list value -> list (dentry key) -> key.
  Variable compile : tree -> artifact.
  Variables fp_kinds relevant : list kind.
  Variable ver_of : modst -> option value.

  Hypothesis key_eqb_spec : forall a b, key_eqb a b = true <-> a = b.
  (* sha256 of the rendered manifest has no collisions *)
  Hypothesis digest_inj : forall v1 k1 v2 k2, digest v1 k1 = digest v2 k2 -> v1 = v2 /\ k1 = k2.
  (* the compiler looks at the relevant kinds only (of the package and of the mutable
     packages it imports) and at (id, version) of immutable imports *)
  Hypothesis compile_ext : forall t u, rel_eq relevant t u -> compile t = compile u.

  Notation fp := (fp key digest fp_kinds ver_of).
  Notation dep_entry := (dep_entry key digest fp_kinds ver_of).
  Notation lookup := (lookup key artifact key_eqb).
  Notation build_one := (build_one key artifact key_eqb digest compile fp_kinds ver_of).
  Notation build_list := (build_list key artifact key_eqb digest compile fp_kinds ver_of).
  Notation build_cached := (build_cached key artifact key_eqb digest compile fp_kinds ver_of).
  Notation run_cached := (run_cached key artifact key_eqb digest compile fp_kinds ver_of).

  Lemma fp_unfold o s ds :
    fp (Node o s ds) = digest (vals fp_kinds o) (if memk KDeps fp_kinds then map dep_entry ds else []).
  Proof.
    cbn. destruct (memk KDeps fp_kinds); [|reflexivity]. f_equal.
    apply map_ext. intros [o' s' ds']. reflexivity.
  Qed.

  Section Covered.
    Hypothesis Hcov : covers fp_kinds (KDeps :: relevant) = true.
    (* moduleVersion: the version exactly for the immutable modules *)
    Hypothesis Hpol : forall s, ver_of s = if immutable s then Some (mver s) else None.

    Lemma deps_in : memk KDeps fp_kinds = true.
    Proof. apply memk_In. apply (proj1 (covers_incl _ _) Hcov). now left. Qed.

    Lemma fp_rel_eq : forall t u, fp t = fp u -> rel_eq relevant t u.
    Proof.
      induction t as [o s ds IH] using tree_ind'. intros [o2 s2 d2] H.
      rewrite !fp_unfold, deps_in in H. apply digest_inj in H as [Hv Hd].
      constructor.
      - apply vals_agree in Hv. intros k Hk. apply Hv.
        apply (proj1 (covers_incl _ _) Hcov). now right.
      - revert d2 Hd. induction IH as [|x xs Hx _ IHxs]; intros [|y ys] Hd; cbn in Hd; try discriminate.
        + constructor.
        + injection Hd as H1 H2. constructor; [|now apply IHxs].
          unfold Model.dep_entry in H1. rewrite !Hpol in H1.
          destruct (immutable (tst x)) eqn:Ix, (immutable (tst y)) eqn:Iy; try discriminate H1.
          * left. injection H1 as E1 E2. auto.
          * right. injection H1 as E1. auto.
    Qed.

    Definition cache_ok (c : cache key artifact) : Prop :=
      forall k a, In (k, a) c -> exists t, k = fp t /\ a = compile t.

    Lemma cache_ok_nil : cache_ok [].
    Proof. intros k a []. Qed.

    Lemma lookup_In k c a : lookup k c = Some a -> In (k, a) c.
    Proof.
      induction c as [|[k' a'] c IH]; cbn; [discriminate|].
      destruct (key_eqb k k') eqn:E.
      - intros H. injection H as <-. apply key_eqb_spec in E. subst k'. now left.
      - intros H. right. now apply IH.
    Qed.

    Lemma build_one_ok c t cb :
      cache_ok c ->
      cache_ok (fst (build_one c t cb)) /\ snd (build_one c t cb) = compile t.
    Proof.
      intros Hc. unfold Model.build_one. destruct cb; [|now split].
      destruct (lookup (fp t) c) as [a|] eqn:L; cbn.
      - split; [assumption|].
        destruct (Hc _ _ (lookup_In _ _ _ L)) as (t' & Hk & Ha). subst a. symmetry.
        apply compile_ext. now apply fp_rel_eq.
      - split; [|reflexivity].
        intros k a [H | H]; [|now apply Hc].
        injection H as <- <-. now exists t.
    Qed.

    Lemma build_list_ok ts c :
      cache_ok c ->
      cache_ok (fst (build_list c ts)) /\ snd (build_list c ts) = map compile (map fst ts).
    Proof.
      intros Hc. induction ts as [|[t cb] ts IH]; cbn; [now split|].
      destruct (build_list c ts) as [c1 outs] eqn:E1. cbn in IH. destruct IH as [IH1 IH2].
      pose proof (build_one_ok c1 t cb IH1) as [B1 B2].
      destruct (build_one c1 t cb) as [c2 a] eqn:E2. cbn in *. split; [assumption|]. now subst.
    Qed.

    Lemma build_cached_ok c m :
      cache_ok c ->
      cache_ok (fst (build_cached c m)) /\ snd (build_cached c m) = build_clean artifact compile m.
    Proof.
      intros Hc. unfold Model.build_cached, build_clean.
      destruct (build_list_ok (combine (trees m) (map p_cacheable m)) c Hc) as [H1 H2].
      split; [assumption|]. rewrite H2. f_equal. apply map_fst_combine.
      now rewrite length_trees, map_length.
    Qed.

    Lemma cache_sound_gen : forall h m c,
      cache_ok c -> run_cached m c h = run_clean artifact compile m h.
    Proof.
      induction h as [|s h IH]; intros m c Hc; cbn; [reflexivity|].
      destruct s as [i k v | k v | | ].
      - now apply IH.
      - now apply IH.
      - destruct (build_cached_ok c m Hc) as [H1 H2].
        destruct (build_cached c m) as [c' out]. cbn in *. subst out. f_equal. now apply IH.
      - apply IH, cache_ok_nil.
    Qed.
  End Covered.

  (* an edit of a kind the manifest lacks leaves the fingerprint alone *)
  Lemma fp_upd_uncovered o s ds k v : ~ In k fp_kinds -> fp (Node (upd o k v) s ds) = fp (Node o s ds).
  Proof. intros Hk. rewrite !fp_unfold. now rewrite vals_upd_notin. Qed.

  Lemma uncovered_edit_stale k i v :
    ~ In k fp_kinds ->
    compile (Node (upd i k v) MMain []) <> compile (Node i MMain []) ->
    run_cached (one_pkg i) [] [Build; EditPkg 0 k v; Build]
    <> run_clean artifact compile (one_pkg i) [Build; EditPkg 0 k v; Build].
  Proof.
    intros Hk Hc. set (t := Node i MMain []). set (c := [(fp t, compile t)]).
    (* the first build stores the archive under the fingerprint of t ... *)
    assert (B1 : build_cached [] (one_pkg i) = (c, [compile t])) by reflexivity.
    (* ... and the second build, of the edited package, finds it there *)
    assert (B2 : build_cached c (one_pkg (upd i k v)) = (c, [compile t])).
    { change (build_cached c (one_pkg (upd i k v)))
        with (let (c2, a) := build_one c (Node (upd i k v) MMain []) true in (c2, [a])).
      unfold Model.build_one. rewrite (fp_upd_uncovered _ _ _ _ _ Hk). fold t. unfold c. cbn [Model.lookup].
      now rewrite (proj2 (key_eqb_spec _ _) eq_refl). }
    change (run_cached (one_pkg i) [] [Build; EditPkg 0 k v; Build])
      with (let (c1, out1) := build_cached [] (one_pkg i) in
            out1 :: (let (_, out2) := build_cached c1 (one_pkg (upd i k v)) in [out2])).
    rewrite B1, B2. cbn. fold t. intros H. injection H as H. now apply Hc.
  Qed.

  (* [sub_pair t t' u u']: u and u' sit at the same position below t and t', and every
     package on the way down is recorded by fingerprint in its importer *)
  Inductive sub_pair : tree -> tree -> tree -> tree -> Prop :=
  | SubHere t t' : sub_pair t t' t t'
  | SubDep o o' s s' ds ds' n d d' u u' :
      nth_error ds n = Some d -> nth_error ds' n = Some d' ->
      ver_of (tst d) = None -> ver_of (tst d') = None ->
      sub_pair d d' u u' -> sub_pair (Node o s ds) (Node o' s' ds') u u'.

  Lemma map_nth_error_eq {A B} (f : A -> B) l l' n x x' :
    map f l = map f l' -> nth_error l n = Some x -> nth_error l' n = Some x' -> f x = f x'.
  Proof.
    intros H H1 H2.
    pose proof (map_nth_error f n l H1) as E1. pose proof (map_nth_error f n l' H2) as E2.
    rewrite H in E1. rewrite E1 in E2. now injection E2.
  Qed.

  Lemma sub_pair_fp_eq t t' u u' :
    memk KDeps fp_kinds = true ->
    sub_pair t t' u u' -> fp t = fp t' -> fp u = fp u'.
  Proof.
    intros HD S. induction S as [|o o' s s' ds ds' n d d' u u' H1 H2 V1 V2 S IH]; [trivial|].
    rewrite !fp_unfold, HD. intros H. apply digest_inj in H as [_ H]. apply IH.
    pose proof (map_nth_error_eq dep_entry _ _ _ _ _ H H1 H2) as E.
    unfold Model.dep_entry in E. rewrite V1, V2 in E. now injection E.
  Qed.

  Lemma edit_changes_fp o s ds k v :
    In k fp_kinds -> v <> o k -> fp (Node (upd o k v) s ds) <> fp (Node o s ds).
  Proof.
    intros Hk Hv H. rewrite !fp_unfold in H. apply digest_inj in H as [H _].
    apply vals_agree in H. specialize (H k Hk). rewrite upd_same in H. contradiction.
  Qed.
  Lemma dep_entry_versioned o s x k v w :
    ver_of s = Some w -> k <> KPkgId -> dep_entry (Node (upd o k v) s x) = dep_entry (Node o s x).
  Proof.
    intros Hv Hk. unfold Model.dep_entry. cbn [tst town]. rewrite Hv, upd_other; congruence.
  Qed.
End Sound.

Lemma ktree_eqb_spec : forall a b, ktree_eqb a b = true <-> a = b.
Proof.
  fix IH 1. intros [v1 k1] [v2 k2]. cbn. rewrite andb_true_iff.
  assert (HK : forall l1 l2,
    (fix go (l1 l2 : list ktree) : bool :=
       match l1, l2 with
       | [], [] => true
       | x :: xs, y :: ys => ktree_eqb x y && go xs ys
       | _, _ => false
       end) l1 l2 = true <-> l1 = l2).
  { clear - IH. induction l1 as [|x xs IHl]; intros [|y ys]; cbn; try (split; [discriminate|discriminate]).
    - split; reflexivity.
    - rewrite andb_true_iff, IH, IHl. split; [intros [-> ->]; reflexivity | intros H; injection H; auto]. }
  rewrite HK. split.
  - intros [Hv ->]. f_equal. apply list_eqb_eq with (e := N.eqb); [apply N.eqb_eq | assumption].
  - intros H. injection H as -> ->. split; [|reflexivity].
    apply list_eqb_refl. apply N.eqb_refl.
Qed.

Lemma cdentry_inj a b : cdentry a = cdentry b -> a = b.
Proof. destruct a, b; cbn; intros H; try discriminate H; injection H; intros; subst; reflexivity. Qed.

Lemma map_inj {A B} (f : A -> B) : (forall a b, f a = f b -> a = b) -> forall l l', map f l = map f l' -> l = l'.
Proof.
  intros Hf. induction l as [|x xs IH]; intros [|y ys]; cbn; intros H; try discriminate; [reflexivity|].
  injection H as H1 H2. f_equal; auto.
Qed.

Lemma cdigest_inj : forall v1 k1 v2 k2, cdigest v1 k1 = cdigest v2 k2 -> v1 = v2 /\ k1 = k2.
Proof.
  unfold cdigest. intros v1 k1 v2 k2 H. injection H as H1 H2. split; [assumption|].
  now apply (map_inj cdentry cdentry_inj).
Qed.

Lemma ccompile_ext : forall t u, rel_eq relevant_kinds t u -> ccompile t = ccompile u.
Proof.
  induction t as [o s ds IH] using tree_ind'. intros u H. inversion H as [o1 o2 s1 s2 d1 d2 Ha Hd]; subst.
  cbn [ccompile]. f_equal.
  - now apply vals_agree.
  - clear H Ha. revert d2 Hd. induction IH as [|x xs Hx _ IHxs]; intros d2 Hd; inversion Hd as [|a b l l' Hab Hl]; subst; cbn [map].
    + reflexivity.
    + f_equal; [|now apply IHxs].
      destruct x as [ox sx dx], b as [oy sy dy]. cbn [tst town] in Hab.
      destruct Hab as [(I1 & I2 & E1 & E2) | (I1 & I2 & R)]; rewrite I1, I2.
      * now rewrite E1, E2.
      * f_equal. f_equal. now apply Hx.
Qed.

Lemma concrete_sound fpk :
  covers fpk (KDeps :: relevant_kinds) = true ->
  forall m h, crun_cached false fpk m h = crun_clean m h.
Proof.
  intros Hc m h. unfold crun_cached, crun_clean.
  apply cache_sound_gen with (relevant := relevant_kinds);
    auto using ktree_eqb_spec, cdigest_inj, ccompile_ext, module_version_faithful, cache_ok_nil.
Qed.

Lemma outs_eqb_refl x : outs_eqb x x = true.
Proof.
  unfold outs_eqb. apply list_eqb_refl. intros a. apply list_eqb_refl.
  intros k. now apply ktree_eqb_spec.
Qed.

Lemma concrete_uncovered_stale fpk k :
  In k relevant_kinds -> ~ In k fpk ->
  crun_cached false fpk (one_pkg (base_inputs 7)) [Build; EditPkg 0 k 1%N; Build]
  <> crun_clean (one_pkg (base_inputs 7)) [Build; EditPkg 0 k 1%N; Build].
Proof.
  intros Hr Hn. unfold crun_cached, crun_clean.
  apply uncovered_edit_stale; auto using ktree_eqb_spec.
  cbn [ccompile map]. intros H0.
  assert (H : vals relevant_kinds (upd (base_inputs 7) k 1%N) = vals relevant_kinds (base_inputs 7))
    by exact (f_equal (fun t => match t with K vs _ => vs end) H0).
  apply vals_agree in H. specialize (H k Hr).
  rewrite upd_same in H. destruct k; discriminate H.
Qed.
