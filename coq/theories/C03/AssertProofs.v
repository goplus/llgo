(* C03 - proofs about the type-assertion model. *)
From LLGoV Require Import C03.Assert.
From Coq Require Import List Arith Bool Lia.
Import ListNotations.

Lemma gty_eqb_spec a b : reflect (a = b) (gty_eqb a b).
Proof.
  destruct a as [n|n|n], b as [m|m|m]; cbn; try (right; discriminate);
    destruct (Nat.eqb_spec n m); constructor; congruence.
Qed.

(* concrete target: the emitted test (pointer equality, or MatchesClosure for
   func types) decides type identity *)
Lemma concrete_exact siid t v :
  wf_desc t -> wf_desc v -> uniq t v ->
  lowered_test true siid (TConc t) (Some v) = gty_eqb (ty t) (ty v).
Proof.
  intros [Wt _] [Wv Mv] (Ht & Hc & Hr).
  unfold lowered_test, test_kind.
  destruct (made v) eqn:Emv.
  - (* run-time descriptor: an unnamed func type *)
    destruct (Mv eq_refl) as [sv Tv]. specialize (Hr eq_refl).
    rewrite Tv in Wv. unfold matches_closure.
    destruct (Nat.eqb_spec (tid t) (tid v)) as [E|_]; [contradiction|].
    destruct (under_sig t) as [st|] eqn:Est.
    + rewrite Wv. unfold named. rewrite Tv.
      destruct (ty t) as [n|s|k] eqn:Tt; cbn.
      * reflexivity.
      * inversion Wt. reflexivity.
      * discriminate Wt.
    + rewrite Tv. destruct (ty t) as [n|s|k] eqn:Tt; cbn; try reflexivity.
      discriminate Wt.
  - specialize (Hc eq_refl).
    assert (Heq : Nat.eqb (tid t) (tid v) = gty_eqb (ty t) (ty v)).
    { destruct (Nat.eqb_spec (tid t) (tid v)), (gty_eqb_spec (ty t) (ty v)); tauto. }
    destruct (under_sig t) as [st|] eqn:Est; [|exact Heq].
    unfold matches_closure. rewrite Heq.
    destruct (gty_eqb (ty t) (ty v)) eqn:Eg; [reflexivity|].
    destruct (under_sig v) as [sv|] eqn:Esv; [|reflexivity].
    unfold named.
    destruct (ty t) as [n|s|k] eqn:Tt; cbn; try reflexivity.
    + destruct (ty v) as [n'|s'|k'] eqn:Tv; cbn; try reflexivity.
      * inversion Wt; inversion Wv; subst. rewrite Est. exact Eg.
      * discriminate Wv.
    + discriminate Wt.
Qed.

(* interface target: non-nil test on identical interface types, Implements otherwise *)
Lemma iface_exact fixed siid sreq iid req tx :
  well_typed siid sreq (TIface iid req) tx ->
  lowered_test fixed siid (TIface iid req) tx = spec_holds (TIface iid req) tx.
Proof.
  intros [Hdyn Hid]. unfold lowered_test, spec_holds, test_kind.
  destruct tx as [v|]; [|reflexivity].
  destruct (Nat.eqb_spec siid iid) as [E|_]; [|reflexivity].
  rewrite <- (Hid iid req eq_refl E). symmetry. apply Hdyn. reflexivity.
Qed.

Definition wf_case (siid : nat) (sreq : list nat) (tg : target) (tx : option tdesc) : Prop :=
  well_typed siid sreq tg tx /\
  match tg, tx with
  | TConc t, Some v => wf_desc t /\ wf_desc v /\ uniq t v
  | _, _ => True
  end.

Lemma lowered_exact siid sreq tg tx :
  wf_case siid sreq tg tx -> lowered_test true siid tg tx = spec_holds tg tx.
Proof.
  intros [Hw Hc]. destruct tg as [t|iid req].
  - destruct tx as [v|]; [|reflexivity].
    destruct Hc as (Wt & Wv & U). rewrite (concrete_exact siid t v Wt Wv U). reflexivity.
  - eapply iface_exact. exact Hw.
Qed.

(* descriptors of func(int) and of a defined type F with that underlying type: the witnesses of
   func_type_assertion_pinned_refuted in Props.v *)
Definition d_func_int := {| tid := 7; ty := GFunc 0; under_sig := Some 0; tmeths := []; made := false |}.
Definition d_F := {| tid := 8; ty := GNamed 8; under_sig := Some 0; tmeths := []; made := false |}.

(* a run-time built descriptor of the same unnamed func type still matches *)
Definition d_made := {| tid := 99; ty := GFunc 0; under_sig := Some 0; tmeths := []; made := true |}.
Lemma made_descriptor_matches :
  wf_desc d_made /\ uniq d_func_int d_made
  /\ assert_outcome true 0 (TConc d_func_int) (Some d_made) false = AOk.
Proof.
  unfold wf_desc, uniq, d_func_int, d_made; cbn.
  repeat split; try reflexivity; try discriminate; try (intros; discriminate); eauto.
Qed.
