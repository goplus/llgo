(* C03 - property theorems only. *)
From LLGoV Require Import C03.Model C03.Proofs.
Local Open Scope Z_scope.

(* The emitted bounds check panics with IndexRange exactly when the index is
   out of range, and never otherwise: for slices, strings and pointers to arrays,
   every index type and every index bit pattern, on 32- and 64-bit int
   (panic iff out of range = raised, and raised only then). *)
Theorem index_panics_iff_fixed : forall k ti pw p c len i,
  wf_ity ti -> wf_pw pw -> 0 <= kind_len k len < 2 ^ (pw - 1) -> in_range (bits ti) i ->
  exec (recipe_index true k ti pw) (index_args k p c len i)
  = if idx_ok (kind_len k len) (val ti i) then Ret 0 else Panic IndexRange.
Proof.
  intros k ti pw p c len i Hti Hpw. apply wf_w_pos in Hti. apply wf_pw_pos in Hpw.
  destruct (Z.ltb_spec pw (bits ti)); [apply index_check_wide | apply index_check_not_wider]; lia.
Qed.
Print Assumptions index_panics_iff_fixed.

(* the same for the lowering that converts the index to int first, as long as
   that conversion does not narrow *)
Theorem index_panics_iff_not_wider : forall k ti pw p c len i,
  wf_ity ti -> wf_pw pw -> bits ti <= pw ->
  0 <= kind_len k len < 2 ^ (pw - 1) -> in_range (bits ti) i ->
  exec (recipe_index false k ti pw) (index_args k p c len i)
  = if idx_ok (kind_len k len) (val ti i) then Ret 0 else Panic IndexRange.
Proof.
  intros k ti pw p c len i Hti _ Hle. apply wf_w_pos in Hti. apply index_check_not_wider. lia.
Qed.
Print Assumptions index_panics_iff_not_wider.

Example index_nontrivial :
  exec (recipe_index true KSlice I8 64) (index_args KSlice 0 0 10 255) = Panic IndexRange
  /\ exec (recipe_index true KString U16 32) (index_args KString 0 0 10 9) = Ret 0
  /\ exec (recipe_index true (KArrPtr 10) I64 32) (index_args (KArrPtr 10) 0 0 0 (2 ^ 32 + 1)) = Panic IndexRange.
Proof. repeat split; reflexivity. Qed.

(* finding F8: converting a 64-bit index to a 32-bit int before the compare
   lets an out-of-range index through *)
Theorem index_truncated_refuted :
  exec (recipe_index false KSlice I64 32) (index_args KSlice 4096 16 10 (2 ^ 32 + 1)) = Ret 0
  /\ idx_ok 10 (val I64 (2 ^ 32 + 1)) = false.
Proof. split; reflexivity. Qed.
Print Assumptions index_truncated_refuted.

(* nil dereference is recoverable as many times as it happens in one thread when
   the signal stays deliverable after the handler was left by a non-local jump:
   the handler is installed with SA_NODEFER (what the tree does on Linux since
   66e5301) or the mask is saved by sigsetjmp and restored by siglongjmp *)
Theorem fault_recoverable_repeatedly : forall nodefer savemask n,
  recoverable_config nodefer savemask = true ->
  dead (faults nodefer savemask n sig_init) = false
  /\ recovered (faults nodefer savemask n sig_init) = n.
Proof.
  intros nodefer savemask n Hc. rewrite faults_deliverable by easy. cbn. now rewrite Nat.add_0_r.
Qed.
Print Assumptions fault_recoverable_repeatedly.

Example fault_recoverable_nontrivial :
  recoverable_config true false = true /\ recovered (faults true false 5 sig_init) = 5%nat.
Proof. split; reflexivity. Qed.

(* finding F15 (repaired): with default flags and sigsetjmp(jb, 0), as the pinned
   tree had it, the second fault in one thread finds SIGSEGV blocked and kills
   the process *)
Theorem fault_recoverable_repeatedly_refuted :
  dead (faults false false 2 sig_init) = true /\ recovered (faults false false 2 sig_init) = 1%nat.
Proof. split; reflexivity. Qed.
Print Assumptions fault_recoverable_repeatedly_refuted.

(* Bounds of slice expressions and make sizes of a type wider than int (64-bit
   on a 32-bit target): after narrowing, a value is a valid bound (0 <= v <=
   limit, limit < 2^31) exactly when it was one before, and then it is
   unchanged - so the runtime check that follows gives Go's verdict. *)
Theorem fit_int_preserves_bound_verdict : forall tn pw n limit,
  wf_ity tn -> wf_pw pw -> in_range (bits tn) n -> 0 <= limit < 2 ^ (pw - 1) ->
  exists r, exec (recipe_fit true tn pw) [n] = Ret r
            /\ bound_ok limit (sgn pw r) = bound_ok limit (val tn n)
            /\ (bound_ok limit (val tn n) = true -> sgn pw r = val tn n).
Proof. intros tn pw n limit Htn Hpw. apply fit_fixed_exact; [now apply wf_w_pos | now apply wf_pw_pos]. Qed.
Print Assumptions fit_int_preserves_bound_verdict.

(* the pinned lowering (plain truncation): a[0:int64(1)<<32+1] passes as a[0:1] *)
Theorem fit_int_truncation_refuted :
  exec (recipe_fit false I64 32) [2 ^ 32 + 1] = Ret 1
  /\ bound_ok 10 (val I64 (2 ^ 32 + 1)) = false /\ bound_ok 10 (sgn 32 1) = true.
Proof. repeat split; reflexivity. Qed.
Print Assumptions fit_int_truncation_refuted.

(* ---- type assertions (C03.Assert) ---- *)
From LLGoV Require Import C03.Assert C03.AssertProofs.
Local Open Scope nat_scope.

(* x.(T) and v, ok := x.(T), for every static interface type of x, every
   dynamic type (none: nil interface, compile-time or reflect-made descriptor)
   and every asserted type: the emitted test (non-nil test on identical
   interface types, runtime Implements, pointer equality of descriptors, or
   MatchesClosure for func types) holds exactly when Go's rule holds, so the
   plain form panics iff the assertion fails (raised, and raised only then)
   and the comma-ok form never panics. *)
Theorem type_assertion_outcome_exact : forall siid sreq tg tx commaok,
  wf_case siid sreq tg tx ->
  assert_outcome true siid tg tx commaok =
  if spec_holds tg tx then AOk else if commaok then ANotOk else APanic.
Proof.
  intros siid sreq tg tx commaok H. unfold assert_outcome. now rewrite (lowered_exact _ _ _ _ H).
Qed.
Print Assumptions type_assertion_outcome_exact.

Example type_assertion_nontrivial :
  wf_case 0 [] (TConc d_func_int) (Some d_made) /\ wf_case 1 [1] (TIface 1 [1]) None
  /\ assert_outcome true 1 (TIface 1 [1]) None false = APanic.
Proof.
  split; [|split; [|reflexivity]]; unfold wf_case, well_typed; cbn.
  - (* d_made for func(int): well typed; both descriptors well formed; they differ and
       d_made is built at run time *)
    split; [split; [easy | discriminate] | split; [|split]].
    + unfold wf_desc, d_func_int; cbn. now split.
    + unfold wf_desc, d_made; cbn. split; [reflexivity | intros _; now exists 0].
    + unfold uniq, d_func_int, d_made; cbn. split; [reflexivity | split; [discriminate | intros _; discriminate]].
  - (* a nil interface: no dynamic type; identical interface ids give the same method list *)
    split; [split; [discriminate | now intros iid req [= <- <-]] | exact I].
Qed.

(* finding: the pinned MatchesClosure compared signatures whenever descriptors
   differed - any(F(f)).(func(int)) succeeded *)
Theorem func_type_assertion_pinned_refuted :
  wf_desc d_func_int /\ wf_desc d_F /\ uniq d_func_int d_F
  /\ assert_outcome false 0 (TConc d_func_int) (Some d_F) false = AOk
  /\ spec_holds (TConc d_func_int) (Some d_F) = false
  /\ assert_outcome true 0 (TConc d_func_int) (Some d_F) false = APanic.
Proof.
  unfold wf_desc, uniq, d_func_int, d_F; cbn. split; [|split; [|split]].
  - split; [reflexivity | discriminate].
  - split; [exact I | discriminate].
  - (* compile-time descriptors, different addresses, different types *)
    split; [reflexivity | split; [intros _; split; discriminate | discriminate]].
  - now repeat split.
Qed.
Print Assumptions func_type_assertion_pinned_refuted.
