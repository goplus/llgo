(* C03 - the bounds checks and FitIntSize, for any positive widths. The two lowerings of an index
   check (index_check_not_wider, index_check_wide) are run by C02's [steps]; what the emitted
   test decides is signed_check / unsigned_check. fit_fixed_exact rests on bound_verdict and
   sgn_wrap_verdict; faults_deliverable is the closed form of the signal path. *)
From LLGoV Require Import C03.Model C02.Proofs.
From Coq Require Import ZifyBool.
Local Open Scope Z_scope.

Definition wf_pw (pw : Z) : Prop := pw = 32 \/ pw = 64.

Definition expected (k : ckind) (ti : ity) (len i : Z) : outcome :=
  if idx_ok (kind_len k len) (val ti i) then Ret 0 else Panic IndexRange.

Lemma wf_pw_pos pw : wf_pw pw -> 0 < pw.
Proof. intros [-> | ->]; lia. Qed.

(* The emitted test on a pattern x against a length below 2^(w-1): a signed x is tested for < 0
   and, as unsigned, for >= len (the second test alone would do, since a negative x reads as at
   least 2^(w-1)); an unsigned x only for >= len *)
Lemma signed_check w x len : 0 < w -> in_range w x -> 0 <= len < 2 ^ (w - 1) ->
  (Z.lor (b2z (len <=? x)) (b2z (sgn w x <? sgn w (wrap w 0))) =? 0) = idx_ok len (sgn w x).
Proof.
  intros Hw Hx Hlen. rewrite lor_b2z, b2z_eqb0, (sgn_wrap w 0) by lia.
  unfold idx_ok, sgn, in_range in *. rewrite (pow2_double w Hw) in *. destruct (x <? _) eqn:E; lia.
Qed.

Lemma unsigned_check x len : 0 <= x -> (b2z (len <=? x) =? 0) = idx_ok len x.
Proof. intros Hx. rewrite b2z_eqb0. unfold idx_ok. lia. Qed.

(* the index type is not wider than int: the index is extended to int by its own sign, which
   keeps its value, then checked (the lowering before the repair, and after it for these types) *)
Lemma index_check_not_wider fixed k ti pw p c len i :
  0 < bits ti <= pw -> 0 <= kind_len k len < 2 ^ (pw - 1) -> in_range (bits ti) i ->
  exec (recipe_index fixed k ti pw) (index_args k p c len i) = expected k ti len i.
Proof.
  intros Hw Hlen Hi. destruct ti as [w s]. cbn [bits sg] in *.
  unfold expected, exec, recipe_index, cast_instr, val. cbn [bits sg].
  replace (pw <? w) with false by (symmetry; apply Z.ltb_ge; lia).
  rewrite andb_false_r. cbv zeta.
  pose proof (sgn_bounds w i ltac:(lia) Hi) as Hs. pose proof (pow2_mono (w - 1) (pw - 1) ltac:(lia)) as Hp.
  pose proof (in_range_mono w pw i ltac:(lia) Hi) as Hi'.
  assert (Hn : in_range pw (kind_len k len)) by (unfold in_range; rewrite (pow2_double pw); lia).
  (* in each case: for every kind of indexed object the recipe runs up to the assertion, whose
     condition is the check lemma's left-hand side (the constant length of an array pointer
     comes wrapped: wrap_small) *)
  destruct (Z.eqb_spec w pw) as [<-|E]; destruct s.
  - (* same width, signed *)
    destruct k as [| |n];
      cbn [index_args idx_slot len_operand kind_len nparams body ret retw length Nat.eqb map app] in *;
      steps; cbn [eval_bin]; steps; rewrite ?(wrap_small _ n) by exact Hn;
      rewrite signed_check by (assumption || lia); now destruct (idx_ok _ _).
  - (* same width, unsigned *)
    destruct k as [| |n];
      cbn [index_args idx_slot len_operand kind_len nparams body ret retw length Nat.eqb map app] in *;
      steps; rewrite ?(wrap_small _ n) by exact Hn;
      rewrite unsigned_check by (unfold in_range in Hi; lia); now destruct (idx_ok _ _).
  - (* narrower, signed: the index checked is the sign extension wrap pw (sgn w i) *)
    destruct k as [| |n];
      cbn [index_args idx_slot len_operand kind_len nparams body ret retw length Nat.eqb map app] in *;
      steps; cbn [eval_bin]; steps; rewrite ?(wrap_small _ n) by exact Hn;
      rewrite signed_check, sgn_wrap by (assumption || lia || (apply wrap_range; lia));
      now destruct (idx_ok _ _).
  - (* narrower, unsigned: zero extension keeps the pattern *)
    destruct k as [| |n];
      cbn [index_args idx_slot len_operand kind_len nparams body ret retw length Nat.eqb map app] in *;
      steps; rewrite ?(wrap_small _ n) by exact Hn;
      rewrite unsigned_check by (unfold in_range in Hi; lia); now destruct (idx_ok _ _).
Qed.

(* the index type is wider than int: the length is zero-extended instead and the index is
   checked in its own width, then narrowed *)
Lemma index_check_wide k ti pw p c len i :
  0 < pw < bits ti -> 0 <= kind_len k len < 2 ^ (pw - 1) -> in_range (bits ti) i ->
  exec (recipe_index true k ti pw) (index_args k p c len i) = expected k ti len i.
Proof.
  intros Hw Hlen Hi. destruct ti as [w s]. cbn [bits sg] in *.
  unfold expected, exec, recipe_index, val. cbn [bits sg].
  replace (pw <? w) with true by (symmetry; apply Z.ltb_lt; lia). cbv zeta.
  pose proof (pow2_mono (pw - 1) (w - 1) ltac:(lia)) as Hp.
  assert (Hn : in_range w (kind_len k len)) by (unfold in_range; rewrite (pow2_double w); lia).
  destruct s.
  - (* signed *)
    destruct k as [| |n];
      cbn [andb is_const_len index_args idx_slot len_operand kind_len nparams body ret retw length
           Nat.eqb map app] in *;
      steps; cbn [eval_bin]; steps; rewrite ?(wrap_small _ n) by exact Hn;
      rewrite signed_check by (assumption || lia); now destruct (idx_ok _ _).
  - (* unsigned *)
    destruct k as [| |n];
      cbn [andb is_const_len index_args idx_slot len_operand kind_len nparams body ret retw length
           Nat.eqb map app] in *;
      steps; rewrite ?(wrap_small _ n) by exact Hn;
      rewrite unsigned_check by (unfold in_range in Hi; lia); now destruct (idx_ok _ _).
Qed.

Lemma faults_deliverable nodefer savemask n : forall s,
  recoverable_config nodefer savemask = true -> dead s = false -> blocked s = false ->
  faults nodefer savemask n s = {| blocked := false; recovered := n + recovered s; dead := false |}.
Proof.
  induction n as [|n IH]; intros [b r d] Hc Hd Hb; cbn in Hd, Hb; subst; [reflexivity|].
  cbn [faults]. unfold fault at 1. cbn [dead blocked recovered].
  replace (negb nodefer && negb savemask) with false
    by (unfold recoverable_config in Hc; now destruct nodefer, savemask).
  rewrite IH by easy. cbn [recovered]. f_equal. lia.
Qed.

(* two values that agree whenever either lies in [0, h) get the same verdict from every check
   against a limit below h *)
Lemma bound_verdict h limit u v :
  0 <= limit < h -> (0 <= v < h -> u = v) -> (0 <= u < h -> u = v) ->
  bound_ok limit u = bound_ok limit v /\ (bound_ok limit v = true -> u = v).
Proof. unfold bound_ok. lia. Qed.

(* wrapping to w bits and reading back as signed loses nothing a check against a limit below
   2^(w-1) could see, for values from -2^(w-1) up to 2^w: from 2^(w-1) on they turn negative *)
Lemma sgn_wrap_verdict w v limit :
  0 < w -> - 2 ^ (w - 1) <= v < 2 ^ w -> 0 <= limit < 2 ^ (w - 1) ->
  bound_ok limit (sgn w (wrap w v)) = bound_ok limit v
  /\ (bound_ok limit v = true -> sgn w (wrap w v) = v).
Proof.
  intros Hw Hv Hl. apply (bound_verdict (2 ^ (w - 1))); [exact Hl|..]; intros H.
  - apply sgn_wrap; lia.
  - destruct (Z_lt_le_dec v (2 ^ (w - 1))); [apply sgn_wrap; lia|].
    rewrite wrap_small in * by (unfold in_range; lia).
    unfold sgn in *. rewrite (pow2_double w Hw) in *. destruct (v <? _) eqn:E; lia.
Qed.

Lemma fit_fixed_exact tn pw n limit :
  0 < bits tn -> 0 < pw -> in_range (bits tn) n -> 0 <= limit < 2 ^ (pw - 1) ->
  exists r, exec (recipe_fit true tn pw) [n] = Ret r
            /\ bound_ok limit (sgn pw r) = bound_ok limit (val tn n)
            /\ (bound_ok limit (val tn n) = true -> sgn pw r = val tn n).
Proof.
  intros Hw Hpw Hn Hl. pose proof (val_nonneg tn n Hw Hn) as Hv.
  assert (R : bits tn <= pw -> - 2 ^ (pw - 1) <= val tn n < 2 ^ pw).
  { intros L. pose proof (val_bounds tn n Hw Hn) as R.
    pose proof (pow2_mono (bits tn - 1) (pw - 1)). pose proof (pow2_mono (bits tn) pw).
    pose proof (pow2_pos (pw - 1)). rewrite (pow2_double pw Hpw) in *. destruct (sg tn); lia. }
  unfold recipe_fit.
  destruct (Z.eqb_spec (bits tn) pw) as [E|E]; [|destruct (Z.ltb_spec (bits tn) pw) as [L|L]];
    unfold exec; cbn [nparams body ret retw length Nat.eqb map].
  - (* same width: the pattern is kept, and it is its value wrapped *)
    steps. exists (wrap pw (val tn n)). split; [|apply sgn_wrap_verdict; [exact Hpw | apply R; lia | exact Hl]].
    now rewrite <- E, wrap_val by (lia || assumption).
  - (* narrower: extended by the source sign *)
    rewrite run_cons, (step_cast_instr tn {| bits := pw; sg := true |} _ _ n)
      by (assumption || reflexivity || (cbn; lia)).
    steps. eexists. split; [reflexivity|].
    apply sgn_wrap_verdict; [exact Hpw | apply R; lia | exact Hl].
  - (* wider: n is narrowed, widened back and compared; u is what the narrowed pattern reads as *)
    steps. rewrite b2z_eqb0.
    set (u := sgn pw (wrap pw n)).
    pose proof (pow2_mono (pw - 1) (bits tn - 1) ltac:(lia)) as Hp.
    pose proof (pow2_double (bits tn) Hw) as Hd. pose proof (pow2_double pw Hpw) as Hd'.
    assert (A : 0 <= val tn n < 2 ^ (pw - 1) -> wrap (bits tn) u = n /\ u = val tn n).
    { intros H. rewrite Hv in * by lia. unfold u.
      rewrite (wrap_small pw n), sgn_small by (unfold in_range; lia).
      split; [now apply wrap_small | reflexivity]. }
    assert (B : wrap (bits tn) u = n -> 0 <= u < 2 ^ (pw - 1) -> u = val tn n).
    { intros T H. rewrite wrap_small in T by (unfold in_range; lia). rewrite <- T.
      unfold val. destruct (sg tn); [|reflexivity]. symmetry. apply sgn_small. lia. }
    destruct (Z.eqb_spec (wrap (bits tn) u) n) as [T|T]; cbn [negb];
      eexists; (split; [reflexivity|]); apply (bound_verdict (2 ^ (pw - 1))); try exact Hl.
    + apply A.
    + now apply B.
    + intros H. now destruct (A H).
    + rewrite (sgn_wrap pw (-1)) by lia. lia.
Qed.
